(* The clock source (C09). A worker that does not crash is a trace of closed-form iterations: tick k shows obs_of of the
   state before it and of its own input record (obs_nth), and every statement about ticks is read off that equation. *)
From Coq Require Import ZArith List Bool Lia ZifyBool.
From OBB Require Import Base.Dec Gen.ClockConst Model.Clock.
Import ListNotations.
Open Scope Z_scope.

Lemma constants :
  c_hyperframe = 2715648 /\ c_hyperframe_shared = 2715648 /\
  0 < c_tick /\ Z.abs (c_tick - 4615000) <= 1000 /\ c_first_tick = c_tick /\
  c_default_period = 102 /\ c_default_start = 0.
Proof. vm_compute. intuition discriminate. Qed.

(* the configuration the theorems speak about: any tick, the hyperframe of the source *)
Definition mkcfg (tk per : Z) (nl : nat) (h : bool) : cfg :=
  {| tick := tk; hyper := c_hyperframe; period := per; nlinks := nl; handler := h |}.

Lemma impl_cfg_mk per nl h : impl_cfg per nl h = mkcfg c_tick per nl h.
Proof. reflexivity. Qed.

(* dec_fuel / dec_nat / dec of Model/Clock.v are textual copies of those of Base/Dec.v: a Dec lemma applies to them by
   conversion (apply / exact), but rewriting with one does not find the Clock term *)
Lemma dec_nonneg n : 0 <= n -> dec n = dec_nat n.
Proof. intros Hn. unfold dec. destruct (n <? 0) eqn:E; [lia|reflexivity]. Qed.

(* the payload of frame fn >= 0: the ten octets of "IND CLOCK ", the canonical decimal digits of fn, one NUL *)
Lemma payload_spec fn : 0 <= fn ->
  payload fn = [73; 78; 68; 32; 67; 76; 79; 67; 75; 32] ++ dec fn ++ [0]
  /\ Forall is_dig (dec fn) /\ dec fn <> [] /\ dec_value (dec fn) = fn
  /\ (0 < fn -> hd 0 (dec fn) <> 48) /\ (fn = 0 -> dec fn = [48])
  /\ ~ In 0 ([73; 78; 68; 32; 67; 76; 79; 67; 75; 32] ++ dec fn).
Proof.
  intros Hn. split; [reflexivity|]. rewrite dec_nonneg by exact Hn.
  destruct (dec_nat_spec fn Hn) as [E2 [E3 [E4 [E5 E6]]]].
  refine (conj E2 (conj E3 (conj E4 (conj E5 (conj E6 _))))).
  intros I. apply in_app_or in I. destruct I as [I|I].
  - cbn in I. lia.
  - rewrite Forall_forall in E2. apply E2 in I. unfold is_dig in I. lia.
Qed.

(* "%u" of a negative number (clck_start < 0 only): '-' and the digits of -n *)
Lemma dec_negative n : n < 0 -> dec n = 45 :: dec_nat (- n).
Proof. intros Hn. unfold dec. destruct (n <? 0) eqn:E; [reflexivity|lia]. Qed.

(* one iteration in closed form *)
Definition over_of (c : cfg) (s : wst) : bool := tnext s + tick c <? now s.
Definition deadline_of (c : cfg) (s : wst) (e : Z) : Z := if over_of c s then now s + e else tnext s + tick c.
Definition next_state (c : cfg) (s : wst) (i : itin) : wst :=
  {| now := deadline_of c s (i_e i) + i_j i + dur c i; tnext := deadline_of c s (i_e i); src := (src s + 1) mod hyper c |}.
Definition obs_of (c : cfg) (s : wst) (i : itin) : obs :=
  {| o_over := over_of c s; o_deadline := deadline_of c s (i_e i); o_fn := src s; o_time := deadline_of c s (i_e i) + i_j i;
     o_sends := ind_sends c (src s); o_called := handler c |}.

Lemma step_eq c s i : period c <> 0 -> step c s i = Some (next_state c s i, obs_of c s i).
Proof.
  intros Hp. unfold step, head_iter, send_clck_ind, next_state, obs_of, deadline_of, over_of.
  destruct (period c =? 0) eqn:Ep; [lia|].
  destruct (tnext s + tick c - now s <? 0) eqn:E1; destruct (tnext s + tick c <? now s) eqn:E2; try lia.
  - do 2 f_equal; f_equal; lia.
  - do 2 f_equal; f_equal; lia.
Qed.

Lemma step_crash c s i : period c = 0 -> step c s i = None.
Proof. intros Hp. unfold step, head_iter, send_clck_ind. rewrite Hp. cbn [Z.eqb]. destruct (_ <? 0); reflexivity. Qed.

(* whether an iteration overruns is decided by the one before it alone *)
Lemma over_next c s i : over_of c (next_state c s i) = (tick c <? i_j i + dur c i).
Proof. unfold over_of, next_state. cbn [now tnext]. lia. Qed.

(* the observations of a worker that does not crash *)
Fixpoint trace (c : cfg) (s : wst) (ins : list itin) : list obs :=
  match ins with
  | [] => []
  | i :: rest => obs_of c s i :: trace c (next_state c s i) rest
  end.

Lemma run_trace c : period c <> 0 -> forall ins s, exists sf, run c s ins = (trace c s ins, sf, false).
Proof.
  intros Hp. induction ins as [|i rest IH]; intros s; cbn [run trace].
  - eexists. reflexivity.
  - rewrite step_eq by exact Hp. destruct (IH (next_state c s i)) as [sf ->]. eexists. reflexivity.
Qed.

(* state before iteration k *)
Fixpoint state_at (c : cfg) (s : wst) (ins : list itin) (k : nat) {struct k} : wst :=
  match k, ins with
  | S k', i :: rest => state_at c (next_state c s i) rest k'
  | _, _ => s
  end.

Lemma trace_nth c : forall ins s k,
  nth_error (trace c s ins) k = option_map (obs_of c (state_at c s ins k)) (nth_error ins k).
Proof.
  induction ins as [|i rest IH]; intros s [|k]; cbn [trace state_at nth_error option_map]; try reflexivity. apply IH.
Qed.

Lemma trace_length c : forall ins s, length (trace c s ins) = length ins.
Proof. induction ins as [|i rest IH]; intros s; cbn [trace length]; [|rewrite IH]; reflexivity. Qed.

Lemma state_succ c : forall ins s k i, nth_error ins k = Some i ->
  state_at c s ins (S k) = next_state c (state_at c s ins k) i.
Proof.
  induction ins as [|i0 rest IH]; intros s [|k] i Hk; try discriminate.
  - injection Hk as ->. reflexivity.
  - apply (IH (next_state c s i0) k i Hk).
Qed.

Definition fnseq (start : Z) (k : nat) : Z := match k with O => start | S _ => (start + Z.of_nat k) mod c_hyperframe end.

Lemma src_at c : forall ins s k i, nth_error ins k = Some i ->
  src (state_at c s ins k) = match k with O => src s | S _ => (src s + Z.of_nat k) mod hyper c end.
Proof.
  induction ins as [|i0 rest IH]; intros s [|k] i Hk; try discriminate; [reflexivity|].
  cbn [state_at]. rewrite (IH _ k i Hk). unfold next_state. cbn [src]. destruct k as [|k].
  - reflexivity.
  - rewrite !Nat2Z.inj_succ. rewrite Zplus_mod_idemp_l. f_equal. lia.
Qed.

Lemma fnseq_inrange start k : 0 <= start < 2715648 -> fnseq start k = (start + Z.of_nat k) mod 2715648.
Proof.
  intros Hs. unfold fnseq. destruct k as [|k].
  - rewrite Z.add_0_r, Z.mod_small; lia.
  - reflexivity.
Qed.

Definition s0 (start t0 : Z) : wst := {| now := t0; tnext := t0; src := start |}.

Lemma worker_obs c start t0 ins e : period c <> 0 ->
  r_obs (worker c start t0 ins e) = trace c (s0 start t0) ins /\ r_crashed (worker c start t0 ins e) = false.
Proof.
  intros Hp. unfold worker. fold (s0 start t0). destruct (run_trace c Hp ins (s0 start t0)) as [sf ->].
  destruct (stop_iter c sf e). split; reflexivity.
Qed.

(* tick k shows the closed-form observation of the state before it and its own input record *)
Lemma obs_nth c start t0 ins e k : period c <> 0 ->
  nth_error (r_obs (worker c start t0 ins e)) k = option_map (obs_of c (state_at c (s0 start t0) ins k)) (nth_error ins k).
Proof. intros Hp. destruct (worker_obs c start t0 ins e Hp) as [-> _]. apply trace_nth. Qed.

Lemma obs_view c start t0 ins e k o : period c <> 0 -> nth_error (r_obs (worker c start t0 ins e)) k = Some o ->
  exists i, nth_error ins k = Some i /\ o = obs_of c (state_at c (s0 start t0) ins k) i.
Proof.
  intros Hp Ho. rewrite obs_nth in Ho by exact Hp. destruct (nth_error ins k) as [i|]; [|discriminate].
  injection Ho as <-. eauto.
Qed.
Arguments obs_view {c start t0 ins e k o}.

Lemma obs_before c start t0 ins e k' o' k : period c <> 0 -> nth_error (r_obs (worker c start t0 ins e)) k' = Some o' -> (k <= k')%nat ->
  exists o i, nth_error (r_obs (worker c start t0 ins e)) k = Some o /\ nth_error ins k = Some i.
Proof.
  intros Hp Ho' Hk. destruct (obs_view Hp Ho') as (i' & Hi' & _). rewrite obs_nth by exact Hp.
  destruct (nth_error ins k) as [i|] eqn:Ei; [cbn; eauto|].
  apply nth_error_None in Ei. assert (k' < length ins)%nat by (apply nth_error_Some; congruence). lia.
Qed.
Arguments obs_before {c start t0 ins e k' o'} k.

(* one send_clck_ind per completed wait, handler called iff attached, frame numbers consecutive modulo the hyperframe *)
Lemma fn_sequence_gen c start t0 ins e : period c <> 0 ->
  let r := worker c start t0 ins e in
  r_crashed r = false /\ length (r_obs r) = length ins /\
  forall k o, nth_error (r_obs r) k = Some o ->
    o_called o = handler c /\ o_fn o = match k with O => start | S _ => (start + Z.of_nat k) mod hyper c end.
Proof.
  intros Hp r. subst r. destruct (worker_obs c start t0 ins e Hp) as [E Ecr].
  split; [exact Ecr|]. split; [rewrite E; apply trace_length|].
  intros k o Ho. destruct (obs_view Hp Ho) as (i & Hi & ->).
  cbn [obs_of o_called o_fn]. split; [reflexivity|]. exact (src_at c _ (s0 start t0) _ _ Hi).
Qed.

Lemma fn_sequence c start t0 ins e : period c <> 0 -> 0 <= start < hyper c ->
  let r := worker c start t0 ins e in
  r_crashed r = false /\ length (r_obs r) = length ins /\
  forall k o, nth_error (r_obs r) k = Some o -> o_called o = handler c /\ o_fn o = (start + Z.of_nat k) mod hyper c.
Proof.
  intros Hp Hs r. destruct (fn_sequence_gen c start t0 ins e Hp) as [A [B C]]. fold r in A, B, C.
  split; [exact A|]. split; [exact B|]. intros k o Ho. destruct (C k o Ho) as [C1 C2]. split; [exact C1|].
  rewrite C2. destruct k; [|reflexivity]. rewrite Z.add_0_r, Z.mod_small; [reflexivity|exact Hs].
Qed.

Lemma ind_exact c start t0 ins e : period c <> 0 ->
  forall k o, nth_error (r_obs (worker c start t0 ins e)) k = Some o ->
    (o_fn o mod period c = 0 -> o_sends o = map (fun l => (l, payload (o_fn o))) (map Z.of_nat (seq 0 (nlinks c)))) /\
    (o_fn o mod period c <> 0 -> o_sends o = []).
Proof.
  intros Hp k o Ho. destruct (obs_view Hp Ho) as (i & _ & ->).
  cbn [obs_of o_fn o_sends]. unfold ind_sends, link_ids.
  destruct (_ mod period c =? 0) eqn:E; split; intros Hm; try lia; reflexivity.
Qed.

(* ind_period = 0: ZeroDivisionError in the first send_clck_ind, the thread dies without any tick *)
Lemma period0_crash c start t0 i ins e : period c = 0 ->
  let r := worker c start t0 (i :: ins) e in r_crashed r = true /\ r_obs r = [].
Proof. intros Hp r. subst r. unfold worker. cbn [run]. rewrite step_crash by exact Hp. split; reflexivity. Qed.

(* the handler is entered when the wait returns: deadline + oversleep *)
Lemma tick_time c start t0 ins e : period c <> 0 ->
  forall k o i, nth_error (r_obs (worker c start t0 ins e)) k = Some o -> nth_error ins k = Some i ->
    o_time o = o_deadline o + i_j i.
Proof. intros Hp k o i Ho Hi. rewrite obs_nth, Hi in Ho by exact Hp. injection Ho as <-. reflexivity. Qed.
Arguments tick_time {c start t0 ins e} _ {k o i}.

(* the first deadline is one tick after the start *)
Lemma first_tick c start t0 ins e : period c <> 0 -> 0 <= tick c ->
  forall k o, nth_error (r_obs (worker c start t0 ins e)) k = Some o -> k = O -> o_over o = false /\ o_deadline o = t0 + tick c.
Proof.
  intros Hp Htk k o Ho ->. destruct (obs_view Hp Ho) as (i & _ & ->).
  cbn [obs_of o_deadline o_over]. unfold deadline_of, over_of. cbn [state_at s0 now tnext].
  destruct (t0 + tick c <? t0) eqn:E; [lia|]. split; reflexivity.
Qed.
Arguments first_tick {c start t0 ins e} _ _ {k o}.

(* consecutive iterations: the next one is an overrun iff oversleep + handler time of this one exceeds the tick;
   then t_next is reset to the clock value read after the warning, otherwise it advances by exactly one tick *)
Lemma timing_step c start t0 ins e : period c <> 0 ->
  forall k o o' i i', nth_error (r_obs (worker c start t0 ins e)) k = Some o -> nth_error (r_obs (worker c start t0 ins e)) (S k) = Some o' ->
    nth_error ins k = Some i -> nth_error ins (S k) = Some i' ->
    (i_j i + dur c i <= tick c -> o_over o' = false /\ o_deadline o' = o_deadline o + tick c) /\
    (tick c < i_j i + dur c i -> o_over o' = true /\ o_deadline o' = o_time o + dur c i + i_e i').
Proof.
  intros Hp k o o' i i' Ho Ho' Hi Hi'.
  rewrite obs_nth, Hi in Ho by exact Hp. injection Ho as <-.
  rewrite obs_nth, Hi', (state_succ c _ _ _ _ Hi) in Ho' by exact Hp. injection Ho' as <-.
  cbn [obs_of o_over o_deadline o_time]. unfold deadline_of at 1 3. rewrite over_next. cbn [next_state now tnext].
  destruct (tick c <? _) eqn:E; split; intros Hc; try lia; split; reflexivity.
Qed.
Arguments timing_step {c start t0 ins e} _ {k o o' i i'}.

(* a stretch of iterations a .. a+m-1 that all fit into the tick: the deadlines advance by exactly one tick each,
   whatever happened before a *)
Lemma stretch c start t0 ins e : period c <> 0 ->
  forall a m oa om, nth_error (r_obs (worker c start t0 ins e)) a = Some oa -> nth_error (r_obs (worker c start t0 ins e)) (a + m) = Some om ->
    (forall q i, (a <= q < a + m)%nat -> nth_error ins q = Some i -> i_j i + dur c i <= tick c) ->
    o_deadline om = o_deadline oa + Z.of_nat m * tick c /\ ((0 < m)%nat -> o_over om = false).
Proof.
  intros Hp a. induction m as [|m IH]; intros oa om Ha Hm Hfit.
  - rewrite Nat.add_0_r in Hm. assert (om = oa) by congruence. subst om. split; [cbn; lia|lia].
  - destruct (obs_before (a + m)%nat Hp Hm ltac:(lia)) as [omid [imid [Homid Himid]]].
    destruct (obs_view Hp Hm) as (im & Him & _).
    destruct (IH oa omid Ha Homid) as [D _]. { intros q i Hq. apply Hfit. lia. }
    replace (a + S m)%nat with (S (a + m)) in Hm, Him by lia.
    destruct (timing_step Hp Homid Hm Himid Him) as [F _].
    destruct F as [F1 F2]. { apply (Hfit (a + m)%nat); [lia|exact Himid]. }
    split; [|intros _; exact F1]. rewrite F2, D, Nat2Z.inj_succ. lia.
Qed.
Arguments stretch {c start t0 ins e} _ a m {oa om}.

(* stretch at mkcfg *)
Lemma anchor tk per nl h start t0 ins e : per <> 0 ->
  let c := mkcfg tk per nl h in
  forall a m oa om, nth_error (r_obs (worker c start t0 ins e)) a = Some oa -> nth_error (r_obs (worker c start t0 ins e)) (a + m) = Some om ->
    (forall q i, (a <= q < a + m)%nat -> nth_error ins q = Some i -> i_j i + dur c i <= tk) ->
    o_deadline om = o_deadline oa + Z.of_nat m * tk /\ ((0 < m)%nat -> o_over om = false).
Proof. intros Hp c. exact (@stretch c start t0 ins e Hp). Qed.

Lemma no_drift c start t0 ins e : period c <> 0 -> 0 <= tick c ->
  forall k o i, nth_error (r_obs (worker c start t0 ins e)) k = Some o -> nth_error ins k = Some i ->
    (forall q iq, (q < k)%nat -> nth_error ins q = Some iq -> i_j iq + dur c iq <= tick c) ->
    o_over o = false /\ o_deadline o = t0 + (Z.of_nat k + 1) * tick c /\ o_time o = t0 + (Z.of_nat k + 1) * tick c + i_j i.
Proof.
  intros Hp Htk k o i Ho Hi Hfit.
  destruct (obs_before 0%nat Hp Ho ltac:(lia)) as [o0 [i0 [Ho0 Hi0]]].
  destruct (first_tick Hp Htk Ho0 eq_refl) as [B1 B2]. pose proof (tick_time Hp Ho Hi) as T.
  destruct (stretch Hp 0%nat k Ho0 Ho) as [D V]. { intros q iq Hq. apply Hfit. lia. }
  assert (Dk : o_deadline o = t0 + (Z.of_nat k + 1) * tick c) by (rewrite D, B2; lia).
  split; [|split; [exact Dk|rewrite T, Dk; reflexivity]].
  destruct k as [|k]; [congruence|]. apply V. lia.
Qed.

Lemma resync tk per nl h start t0 ins e : per <> 0 -> 0 <= tk ->
  let c := mkcfg tk per nl h in
  forall k o i o1 i1, nth_error (r_obs (worker c start t0 ins e)) k = Some o -> nth_error ins k = Some i ->
    nth_error (r_obs (worker c start t0 ins e)) (S k) = Some o1 -> nth_error ins (S k) = Some i1 ->
    tk < i_j i + dur c i ->
    o_over o1 = true /\ o_deadline o1 = o_time o + dur c i + i_e i1 /\ o_time o1 = o_deadline o1 + i_j i1 /\
    forall m om im, nth_error (r_obs (worker c start t0 ins e)) (S k + m) = Some om -> nth_error ins (S k + m) = Some im ->
      (forall q iq, (S k <= q < S k + m)%nat -> nth_error ins q = Some iq -> i_j iq + dur c iq <= tk) ->
      o_deadline om = o_deadline o1 + Z.of_nat m * tk /\ o_time om = o_deadline o1 + Z.of_nat m * tk + i_j im /\ ((0 < m)%nat -> o_over om = false).
Proof.
  intros Hp Htk c k o i o1 i1 Ho Hi Ho1 Hi1 Hov.
  change (period c <> 0) in Hp.
  destruct (timing_step Hp Ho Ho1 Hi Hi1) as [_ F]. destruct (F Hov) as [F1 F2].
  pose proof (tick_time Hp Ho1 Hi1) as T1.
  split; [exact F1|]. split; [exact F2|]. split; [exact T1|].
  intros m om im Hom Him Hfit.
  destruct (stretch Hp (S k) m Ho1 Hom Hfit) as [D V].
  pose proof (tick_time Hp Hom Him) as Tm.
  split; [exact D|]. split; [rewrite Tm, D; reflexivity|exact V].
Qed.

(* deadlines are at least one tick apart, always (overrun or not) *)
Lemma deadline_spacing c start t0 ins e : period c <> 0 -> Forall (fun i => 0 <= i_e i) ins ->
  forall k m o o', nth_error (r_obs (worker c start t0 ins e)) k = Some o -> nth_error (r_obs (worker c start t0 ins e)) (k + m) = Some o' ->
    o_deadline o + Z.of_nat m * tick c <= o_deadline o'.
Proof.
  intros Hp He k. induction m as [|m IH]; intros o o' Ho Ho'.
  - rewrite Nat.add_0_r in Ho'. assert (o' = o) by congruence. subst o'. cbn. lia.
  - destruct (obs_before (k + m)%nat Hp Ho' ltac:(lia)) as [om [im [Hom Him]]].
    destruct (obs_view Hp Ho') as (i' & Hi' & _).
    replace (k + S m)%nat with (S (k + m)) in Ho', Hi' by lia.
    destruct (timing_step Hp Hom Ho' Him Hi') as [F G].
    pose proof (tick_time Hp Hom Him) as T.
    assert (E' : 0 <= i_e i'). { rewrite Forall_forall in He. apply He. eapply nth_error_In. exact Hi'. }
    specialize (IH o om Ho Hom). rewrite Nat2Z.inj_succ.
    destruct (Z_le_gt_dec (i_j im + dur c im) (tick c)) as [Hc|Hc].
    + destruct (F Hc) as [_ ->]. lia.
    + destruct (G ltac:(lia)) as [_ ->]. lia.
Qed.
Arguments deadline_spacing {c start t0 ins e} _ _ k m {o o'}.

Lemma spacing tk per nl h start t0 ins e : per <> 0 -> 0 <= tk -> Forall (fun i => 0 <= i_e i) ins ->
  let c := mkcfg tk per nl h in
  forall k m o o' i i', nth_error (r_obs (worker c start t0 ins e)) k = Some o -> nth_error (r_obs (worker c start t0 ins e)) (k + m) = Some o' ->
    nth_error ins k = Some i -> nth_error ins (k + m) = Some i' ->
    o_deadline o + Z.of_nat m * tk <= o_deadline o' /\ o_time o - i_j i + Z.of_nat m * tk <= o_time o' - i_j i'.
Proof.
  intros Hp Htk He c k m o o' i i' Ho Ho' Hi Hi'.
  change (period c <> 0) in Hp.
  pose proof (deadline_spacing Hp He k m Ho Ho') as D. split; [exact D|].
  rewrite (tick_time Hp Ho Hi), (tick_time Hp Ho' Hi'). change (tick c) with tk in D. lia.
Qed.

(* no burst: with an ideal wait the number of ticks in any window of length w is at most w / tick + 1 *)
Fixpoint spaced (tk : Z) (l : list Z) : Prop :=
  match l with
  | x :: l' => match l' with y :: _ => x + tk <= y | [] => True end /\ spaced tk l'
  | [] => True
  end.

Definition count_in (a w : Z) (l : list Z) : Z := Z.of_nat (length (filter (fun t => (a <=? t) && (t <? a + w)) l)).

Lemma count_cons a w x l : count_in a w (x :: l) = (if (a <=? x) && (x <? a + w) then 1 else 0) + count_in a w l.
Proof. unfold count_in. cbn [filter]. destruct ((a <=? x) && (x <? a + w)); [cbn [length]; lia|lia]. Qed.

Lemma count_nonneg a w l : 0 <= count_in a w l.
Proof. unfold count_in. lia. Qed.

(* every counted instant uses up one tick of what is left of the window behind the first instant x *)
Lemma count_from tk a w : 0 < tk -> forall l x, spaced tk (x :: l) ->
  count_in a w (x :: l) * tk <= Z.max 0 (a + w - 1 - Z.max a x + tk).
Proof.
  intros Htk. induction l as [|y l IH]; intros x Hs; rewrite count_cons.
  - change (count_in a w []) with 0. destruct ((a <=? x) && (x <? a + w)) eqn:E; lia.
  - destruct Hs as [H1 H2]. specialize (IH y H2). rewrite Z.mul_add_distr_r.
    destruct ((a <=? x) && (x <? a + w)) eqn:E; lia.
Qed.

Lemma count_spaced tk a w l : 0 < tk -> 0 <= w -> spaced tk l -> count_in a w l <= w / tk + 1.
Proof.
  intros Htk Hw Hs.
  assert (B : count_in a w l * tk <= w - 1 + tk).
  { destruct l as [|x l]; [cbn; lia|]. pose proof (count_from tk a w Htk l x Hs). lia. }
  assert (C : count_in a w l <= (w - 1 + tk) / tk) by (apply Z.div_le_lower_bound; lia).
  assert (E : (w - 1 + tk) / tk <= (w + 1 * tk) / tk) by (apply Z.div_le_mono; lia).
  rewrite Z.div_add in E by lia. lia.
Qed.

Lemma trace_spaced c : 0 <= tick c -> forall ins s, Forall (fun i => 0 <= i_e i /\ i_j i = 0) ins ->
  spaced (tick c) (map o_time (trace c s ins)) /\
  match map o_time (trace c s ins) with t :: _ => tnext s + tick c <= t | [] => True end.
Proof.
  intros Htk. induction ins as [|i rest IH]; intros s Hf.
  - cbn. auto.
  - cbn [trace map]. inversion Hf as [|? ? [He Hj] Hrest]. subst.
    destruct (IH (next_state c s i) Hrest) as [I1 I2]. cbn [obs_of o_time]. rewrite Hj.
    assert (L : tnext s + tick c <= deadline_of c s (i_e i)).
    { unfold deadline_of, over_of. destruct (tnext s + tick c <? now s) eqn:E; lia. }
    split; [|lia]. cbn [spaced]. split; [|exact I1].
    destruct (map o_time (trace c (next_state c s i) rest)) as [|t ?]; [exact I|]. cbn [next_state tnext] in I2. lia.
Qed.

Lemma no_burst c start t0 ins e : period c <> 0 -> 0 < tick c -> Forall (fun i => 0 <= i_e i /\ i_j i = 0) ins ->
  forall a w, 0 <= w ->
  count_in a w (map o_time (r_obs (worker c start t0 ins e))) <= w / tick c + 1.
Proof.
  intros Hp Htk Hf a w Hw. destruct (worker_obs c start t0 ins e Hp) as [-> _].
  apply count_spaced; [exact Htk|exact Hw|]. apply (trace_spaced c ltac:(lia) ins (s0 start t0) Hf).
Qed.

Lemma session_inv c start : forall runs t n r, nth_error (session c start t runs) n = Some r ->
  exists gap e ins t0, nth_error runs n = Some (gap, e, ins) /\ r = worker c start t0 ins e /\
    match n with O => t0 = t + gap | S n' => exists rp, nth_error (session c start t runs) n' = Some rp /\ t0 = now (r_final rp) + gap end.
Proof.
  induction runs as [|[[gap e] ins] rest IH]; intros t n r Hn.
  - destruct n; discriminate.
  - cbn [session] in Hn. destruct n as [|n].
    + cbn in Hn. injection Hn as <-. exists gap, e, ins, (t + gap). repeat split.
    + cbn [nth_error] in Hn. destruct (IH _ _ _ Hn) as [g' [e' [ins' [t0 [A [B C]]]]]].
      exists g', e', ins', t0. split; [exact A|]. split; [exact B|].
      destruct n as [|n'].
      * eexists. split; [cbn [session nth_error]; reflexivity|]. exact C.
      * destruct C as [rp [C1 C2]]. exists rp. split; [|exact C2]. cbn [session]. cbn [nth_error]. exact C1.
Qed.

Lemma session_len c start : forall runs t, length (session c start t runs) = length runs.
Proof. induction runs as [|[[gap e] ins] rest IH]; intros t; [reflexivity|]. cbn [session length]. f_equal. apply IH. Qed.

(* every start() after a stop() begins again at the start frame and is timed from its own start instant *)
Lemma restart tk per nl h start t runs : per <> 0 -> 0 <= tk -> 0 <= start < 2715648 ->
  let c := mkcfg tk per nl h in
  length (session c start t runs) = length runs /\
  forall n r, nth_error (session c start t runs) n = Some r ->
    exists gap e ins t0, nth_error runs n = Some (gap, e, ins) /\ r = worker c start t0 ins e /\
      match n with O => t0 = t + gap | S n' => exists rp, nth_error (session c start t runs) n' = Some rp /\ t0 = now (r_final rp) + gap end /\
      r_crashed r = false /\ length (r_obs r) = length ins /\
      (forall k o, nth_error (r_obs r) k = Some o -> o_fn o = (start + Z.of_nat k) mod 2715648) /\
      (forall o, nth_error (r_obs r) 0 = Some o -> o_fn o = start /\ o_over o = false /\ o_deadline o = t0 + tk).
Proof.
  intros Hp Htk Hs c. split; [apply session_len|]. intros n r Hn.
  change (period c <> 0) in Hp. change (0 <= tick c) in Htk.
  destruct (session_inv c start runs t n r Hn) as [gap [e [ins [t0 [A [B C]]]]]].
  exists gap, e, ins, t0. split; [exact A|]. split; [exact B|]. split; [exact C|]. subst r.
  destruct (fn_sequence c start t0 ins e Hp Hs) as [F1 [F2 F3]].
  split; [exact F1|]. split; [exact F2|]. split.
  - intros k o Ho. apply (F3 k o Ho).
  - intros o Ho. destruct (F3 0%nat o Ho) as [_ F]. rewrite Z.add_0_r, Z.mod_small in F by exact Hs. split; [exact F|].
    exact (first_tick Hp Htk Ho eq_refl).
Qed.

(* non-vacuity: a concrete run with an overrun at the hyperframe wrap *)
Definition ex_ins : list itin :=
  [{| i_e := 3; i_j := 1; i_d := 100 |}; {| i_e := 3; i_j := 0; i_d := 5000000 |}; {| i_e := 11; i_j := 2; i_d := 0 |}; {| i_e := 0; i_j := 0; i_d := 0 |}].

Example ex_run :
  map (fun o => (o_over o, o_deadline o, o_fn o, o_time o, length (o_sends o))) (r_obs (worker (mkcfg 4614999 1 2 true) 2715646 5 ex_ins 7))
  = [(false, 4615004, 2715646, 4615005, 2%nat); (false, 9230003, 2715647, 9230003, 2%nat); (true, 14230014, 0, 14230016, 2%nat); (false, 18845013, 1, 18845013, 2%nat)].
Proof. vm_compute. reflexivity. Qed.

Example ex_payload : payload 2715647 = [73; 78; 68; 32; 67; 76; 79; 67; 75; 32; 50; 55; 49; 53; 54; 52; 55; 0] /\ payload 0 = [73; 78; 68; 32; 67; 76; 79; 67; 75; 32; 48; 0].
Proof. vm_compute. split; reflexivity. Qed.

(* the hypotheses of no_drift / resync are satisfiable on the same run: iteration 0 fits (1 + 100 <= tick), iteration 1 overruns (5000000 > tick) *)
Example ex_hyp : (i_j (nth 0 ex_ins {| i_e := 0; i_j := 0; i_d := 0 |}) + i_d (nth 0 ex_ins {| i_e := 0; i_j := 0; i_d := 0 |}) <= 4614999) /\
                 4614999 < i_j (nth 1 ex_ins {| i_e := 0; i_j := 0; i_d := 0 |}) + i_d (nth 1 ex_ins {| i_e := 0; i_j := 0; i_d := 0 |}).
Proof. vm_compute. split; [discriminate|reflexivity]. Qed.

Example ex_period : map (fun o => (o_fn o, length (o_sends o))) (r_obs (worker (mkcfg 4614999 51 3 false) 2715647 0 (repeat {| i_e := 0; i_j := 0; i_d := 0 |} 4) 0))
  = [(2715647, 0%nat); (0, 3%nat); (1, 0%nat); (2, 0%nat)].
Proof. vm_compute. reflexivity. Qed.
