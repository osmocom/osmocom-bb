(* C17: reserved bits and spare octets of TRXDv2 are ignored on receipt, end to end: the RFU bits of every batched
   sub-PDU header (each sub-PDU its own arbitrary value) and the three spare octets of a Tx PDU and of each of its sub-PDUs
   may hold anything - the datagram decodes to the same message as the documented layout with zeros there. *)
From Coq Require Import ZArith List Bool Lia.
From OBB Require Import Gen.TrxdProto Model.Codec Proofs.CodecInt Proofs.CodecBits Proofs.CodecRT Proofs.CodecDE
  Proofs.CodecErr Proofs.CodecGood Proofs.CodecDGood Proofs.TrxdProtoSpec Proofs.TrxdProtoBits Proofs.TrxdProtoMsg Proofs.TrxdProtoTop.
Import ListNotations.
Open Scope Z_scope.

Lemma dgood_last f e0 data cv n : dgood [f] e0 data (cv ++ []) n -> dgood [f] e0 data cv n.
Proof. rewrite app_nil_r. auto. Qed.
Lemma dgood_len fs e0 data cv n n' : dgood fs e0 data cv n -> n = n' -> dgood fs e0 data cv n'.
Proof. intros H E. exact (dgood_eq _ _ _ _ _ _ _ _ eq_refl eq_refl E H). Qed.

Lemma subs_ditems {A B} item (flds:A -> env) (lay:A -> list Z) (layg:A -> B -> list Z) (ok:A -> Prop) :
  (forall s j T, ok s -> dgood item [] (layg s j ++ T) (flds s) (length (layg s j))) ->
  (forall s j, (1 <= length (layg s j))%nat /\ length (layg s j) = length (lay s)) ->
  forall subs, Forall ok subs -> forall js, length js = length subs ->
  ditems item (concat (map (fun p => layg (fst p) (snd p)) (combine subs js))) (map (fun s => VDict (flds s)) subs) /\
  length (concat (map (fun p => layg (fst p) (snd p)) (combine subs js))) = length (concat (map lay subs)).
Proof.
  intros Hg Hlen. induction 1 as [|s r Hs _ IH]; intros js Hl.
  - destruct js; [|discriminate]. split; [apply ditems_nil|reflexivity].
  - destruct js as [|j js]; [discriminate|]. cbn [length] in Hl.
    destruct (IH js ltac:(lia)) as [Hi Hlr]. cbn [combine map concat fst snd]. split.
    + apply ditems_cons; [apply Hg; assumption|apply Hlen|exact Hi].
    + rewrite !app_length, Hlr, (proj2 (Hlen s j)). reflexivity.
Qed.

Lemma ignored_of_dgood chk pdu spec e lay layg : reflects pdu spec -> dgood spec [] layg e (length layg) -> length layg = length lay ->
  accepts pdu e lay -> decode chk pdu layg = Ok (e, length lay) /\ decode chk pdu layg = decode chk pdu lay.
Proof.
  intros [E Hin] Hg Hlen [_ [Ht Hf]].
  assert (H1 : decode chk pdu layg = Ok (e, length lay)) by (rewrite <- Hlen, E; apply dgood_top; [exact Hg|rewrite <- E; apply (pdu_wf _ Hin)]).
  split; [exact H1|]. rewrite H1. destruct chk; congruence.
Qed.

Definition rxsub_layout_g (s:rxsub) (j:Z) : list Z :=
  [s_tn s + 8 * j; s_batch s * 128 + s_shadow s * 64 + s_trxn s; s_nope s * 128 + s_mod s * 8 + s_tsc s; - s_rssi s]
  ++ be16 (s_toa s) ++ be16 (s_cir s) ++ s_bits s.
Definition rxsubs_layout_g (subs:list rxsub) (js:list Z) : list Z :=
  concat (map (fun p => rxsub_layout_g (fst p) (snd p)) (combine subs js)).
Definition rx2_layout_g (m:rx2) (js:list Z) : list Z :=
  [32 + m_tn m; m_batch m * 128 + m_trxn m; m_nope m * 128 + m_mod m * 8 + m_tsc m; - m_rssi m]
  ++ be16 (m_toa m) ++ be16 (m_cir m) ++ be32 (m_fn m) ++ m_bits m ++ rxsubs_layout_g (m_subs m) js.

Lemma rxsub_dgood s j T : rxsub_ok s ->
  dgood spec_v2_rx_item [] (rxsub_layout_g s j ++ T) (rxsub_fields s) (length (rxsub_layout_g s j)).
Proof.
  intros [Ht [Hba [Hsh [Htr [Hm [Hc [Hr [Ha [Hi Hb]]]]]]]]]. pose proof (nope_range _ _ _ Hb) as Hn.
  unfold rxsub_layout_g. rewrite <- !app_assoc.
  eapply dgood_len.
  - apply dgood_hdr2b; [lia|lia|lia|lia|apply fresh_check; reflexivity|].
    apply dgood_mts; [lia|lia|lia|apply fresh_check; reflexivity|].
    apply dgood_leaf1; [apply rssi_leaf, Hr|reflexivity|]. apply dgood_leaf; [apply i16be_leaf, Ha|reflexivity|].
    apply dgood_leaf; [apply i16be_leaf, Hi|reflexivity|].
    apply dgood_last, (dgood_burst 5 _ (s_mod s)); [exact Hb|reflexivity|reflexivity|reflexivity|apply dgood_nil].
  - rewrite !app_length. cbn [length be16]. lia.
Qed.

Lemma rxsub_g_len s j : (1 <= length (rxsub_layout_g s j))%nat /\ length (rxsub_layout_g s j) = length (rxsub_layout s).
Proof. unfold rxsub_layout_g, rxsub_layout. rewrite !app_length. cbn [length]. lia. Qed.

Lemma rx2_rfu_ignored chk m js : rx2_ok m -> length js = length (m_subs m) ->
  decode chk pdu_v2_rx (rx2_layout_g m js) = Ok (rx2_fields m, length (rx2_layout m)) /\
  decode chk pdu_v2_rx (rx2_layout_g m js) = decode chk pdu_v2_rx (rx2_layout m).
Proof.
  intros Hm Hl. pose proof Hm as [Ht [Hba [Htr [Hmd [Hc [Hr [Ha [Hi [Hf [Hb Hsubs]]]]]]]]]]. pose proof (nope_range _ _ _ Hb) as Hn.
  destruct (subs_ditems spec_v2_rx_item rxsub_fields rxsub_layout rxsub_layout_g rxsub_ok rxsub_dgood rxsub_g_len _ Hsubs js Hl) as [Hit Hlen].
  fold (rxsubs_layout_g (m_subs m) js) in Hit, Hlen.
  apply (ignored_of_dgood chk _ _ _ _ _ v2rx_reflects); [|unfold rx2_layout_g, rx2_layout; rewrite !app_length, Hlen; reflexivity|apply rx2_accepts, Hm].
  unfold rx2_layout_g. eapply dgood_len.
  - apply dgood_hdr2; [lia|lia|lia|apply fresh_check; reflexivity|].
    apply dgood_mts; [lia|lia|lia|apply fresh_check; reflexivity|].
    apply dgood_leaf1; [apply rssi_leaf, Hr|reflexivity|]. apply dgood_leaf; [apply i16be_leaf, Ha|reflexivity|].
    apply dgood_leaf; [apply i16be_leaf, Hi|reflexivity|]. apply dgood_leaf; [apply u32be_leaf, Hf|reflexivity|].
    apply (dgood_burst 5 _ (m_mod m)); [exact Hb|reflexivity|reflexivity|reflexivity|].
    apply dgood_seq_last; [reflexivity| |exact Hit]. unfold burst_entry. destruct (m_nope m =? 0); reflexivity.
  - rewrite !app_length. cbn [length be16 be32]. lia.
Qed.

Record txjunk := { k_rfu : Z; k_a : Z; k_b : Z; k_c : Z }.     (* RFU bits of the sub-PDU header, the three spare octets *)
Definition txsub_layout_g (s:txsub) (k:txjunk) : list Z :=
  [ts_tn s + 8 * k_rfu k; ts_batch s * 128 + ts_shadow s * 64 + ts_trxn s; ts_nope s * 128 + ts_mod s * 8 + ts_tsc s; ts_pwr s; ts_scpir s mod 256;
   k_a k; k_b k; k_c k] ++ ts_bits s.
Definition txsubs_layout_g (subs:list txsub) (ks:list txjunk) : list Z :=
  concat (map (fun p => txsub_layout_g (fst p) (snd p)) (combine subs ks)).
(* a b c: the three spare octets of the main part *)
Definition tx2_layout_g (m:tx2) (a b c:Z) (ks:list txjunk) : list Z :=
  [32 + x_tn m; x_batch m * 128 + x_trxn m; x_nope m * 128 + x_mod m * 8 + x_tsc m; x_pwr m; x_scpir m mod 256; a; b; c]
  ++ be32 (x_fn m) ++ x_bits m ++ txsubs_layout_g (x_subs m) ks.

Lemma txsub_dgood s k T : txsub_ok s ->
  dgood spec_v2_tx_item [] (txsub_layout_g s k ++ T) (txsub_fields s) (length (txsub_layout_g s k)).
Proof.
  intros [Ht [Hba [Hsh [Htr [Hm [Hc [Hp [Hs Hb]]]]]]]]. pose proof (nope_range _ _ _ Hb) as Hn.
  unfold txsub_layout_g. rewrite <- !app_assoc.
  eapply dgood_len.
  - apply dgood_hdr2b; [lia|lia|lia|lia|apply fresh_check; reflexivity|].
    apply dgood_mts; [lia|lia|lia|apply fresh_check; reflexivity|].
    apply dgood_leaf1; [apply u8_leaf, Hp|reflexivity|]. apply dgood_leaf1; [apply i8_leaf, Hs|reflexivity|].
    apply (dgood_spare 2 0 _ _ [_; _; _]); [reflexivity|].
    apply dgood_last, (dgood_burst 8 _ (ts_mod s)); [exact Hb|reflexivity|reflexivity|reflexivity|apply dgood_nil].
  - rewrite !app_length. cbn [length]. lia.
Qed.

Lemma txsub_g_len s k : (1 <= length (txsub_layout_g s k))%nat /\ length (txsub_layout_g s k) = length (txsub_layout s).
Proof. unfold txsub_layout_g, txsub_layout. rewrite !app_length. cbn [length]. lia. Qed.

Lemma tx2_reserved_ignored chk m a b c ks : tx2_ok m -> length ks = length (x_subs m) ->
  decode chk pdu_v2_tx (tx2_layout_g m a b c ks) = Ok (tx2_fields m, length (tx2_layout m)) /\
  decode chk pdu_v2_tx (tx2_layout_g m a b c ks) = decode chk pdu_v2_tx (tx2_layout m).
Proof.
  intros Hm Hl. pose proof Hm as [Ht [Hba [Htr [Hmd [Hc [Hp [Hs [Hf [Hb Hsubs]]]]]]]]]. pose proof (nope_range _ _ _ Hb) as Hn.
  destruct (subs_ditems spec_v2_tx_item txsub_fields txsub_layout txsub_layout_g txsub_ok txsub_dgood txsub_g_len _ Hsubs ks Hl) as [Hit Hlen].
  fold (txsubs_layout_g (x_subs m) ks) in Hit, Hlen.
  apply (ignored_of_dgood chk _ _ _ _ _ v2tx_reflects); [|unfold tx2_layout_g, tx2_layout; rewrite !app_length, Hlen; reflexivity|apply tx2_accepts, Hm].
  unfold tx2_layout_g. eapply dgood_len.
  - apply dgood_hdr2; [lia|lia|lia|apply fresh_check; reflexivity|].
    apply dgood_mts; [lia|lia|lia|apply fresh_check; reflexivity|].
    apply dgood_leaf1; [apply u8_leaf, Hp|reflexivity|]. apply dgood_leaf1; [apply i8_leaf, Hs|reflexivity|].
    apply (dgood_spare 2 0 _ _ [_; _; _]); [reflexivity|]. apply dgood_leaf; [apply u32be_leaf, Hf|reflexivity|].
    apply (dgood_burst 8 _ (x_mod m)); [exact Hb|reflexivity|reflexivity|reflexivity|].
    apply dgood_seq_last; [reflexivity| |exact Hit]. unfold burst_entry. destruct (x_nope m =? 0); reflexivity.
  - rewrite !app_length. cbn [length be32]. lia.
Qed.

Lemma concat_combine_const {A B} (f:A -> list Z) (g:A -> B -> list Z) z l : (forall s, g s z = f s) ->
  concat (map (fun p => g (fst p) (snd p)) (combine l (map (fun _ => z) l))) = concat (map f l).
Proof. intros H. induction l as [|s r IH]; [reflexivity|]. cbn [map combine concat fst snd]. rewrite IH, H. reflexivity. Qed.

(* the generalised layouts with nothing in the reserved places are the documented layouts *)
Lemma layout_g_zero :
  (forall m, rx2_layout_g m (map (fun _ => 0) (m_subs m)) = rx2_layout m) /\
  (forall m, tx2_layout_g m 0 0 0 (map (fun _ => {| k_rfu := 0; k_a := 0; k_b := 0; k_c := 0 |}) (x_subs m)) = tx2_layout m).
Proof.
  split; intros m.
  - unfold rx2_layout_g, rx2_layout, rxsubs_layout_g. do 5 f_equal. apply concat_combine_const. intros s.
    unfold rxsub_layout_g, rxsub_layout. rewrite Z.mul_0_r, Z.add_0_r. reflexivity.
  - unfold tx2_layout_g, tx2_layout, txsubs_layout_g. do 3 f_equal. apply concat_combine_const. intros s.
    unfold txsub_layout_g, txsub_layout. cbn [k_rfu k_a k_b k_c]. rewrite Z.mul_0_r, Z.add_0_r. reflexivity.
Qed.
