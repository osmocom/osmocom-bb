(* C16: bit-field sets - BitFieldSet packing is a disjoint OR of windows; dec_val reads the windows back.
   Both directions are stated about a blob that agrees with `packed` on the windows of the set. *)
From Coq Require Import ZArith List Bool Lia.
From OBB Require Import Base.Lists Base.Bits Model.Codec Proofs.CodecInt.
Import ListNotations.
Open Scope Z_scope.

Definition keys (e:env) : list nat := map fst e.
(* the decoder may append cv to e0 with plain `d[k] = v`: all names new and distinct *)
Definition fresh (e0 cv:env) : Prop := NoDup (keys cv) /\ (forall k, In k (keys cv) -> lookup k e0 = None).
Definition disj (e0:env) (ns:list nat) : Prop := forall k, In k ns -> lookup k e0 = None.

Lemma keys_app a b : keys (a ++ b) = keys a ++ keys b.
Proof. apply map_app. Qed.

Lemma lookup_app k e1 e2 : lookup k (e1 ++ e2) = match lookup k e1 with Some v => Some v | None => lookup k e2 end.
Proof. induction e1 as [|[k' v'] r IH]; cbn [lookup app]; [reflexivity|]. destruct (Nat.eqb k k'); [reflexivity|exact IH]. Qed.

Lemma lookup_none_keys k e : lookup k e = None <-> ~ In k (keys e).
Proof.
  induction e as [|[k' v'] r IH]; cbn [lookup keys map fst In]; [tauto|].
  destruct (Nat.eqb_spec k k') as [->|Hne]; [split; [discriminate|tauto]|]. unfold keys in IH. rewrite IH. split; [intros H [E|I]; [congruence|tauto]|tauto].
Qed.

Lemma lookup_in_nodup k v e : NoDup (keys e) -> In (k, v) e -> lookup k e = Some v.
Proof.
  induction e as [|[k' v'] r IH]; cbn [keys map fst lookup In]; intros Hnd Hin; [destruct Hin|].
  inversion Hnd as [|? ? Hni Hnd']; subst. destruct Hin as [E|Hin].
  - injection E as -> ->. rewrite Nat.eqb_refl. reflexivity.
  - destruct (Nat.eqb_spec k k') as [->|_]; [|auto]. exfalso. apply Hni. apply (in_map fst _ _ Hin).
Qed.

Lemma eset_fresh k v e : lookup k e = None -> eset k v e = e ++ [(k,v)].
Proof.
  induction e as [|[k' v'] r IH]; cbn [lookup eset app]; [reflexivity|].
  destruct (Nat.eqb k k'); [discriminate|]. intros H. rewrite IH by exact H. reflexivity.
Qed.

Lemma disj_nil ns : disj [] ns.
Proof. intros k _. reflexivity. Qed.

Lemma disj_app e0 cv ns : disj e0 ns -> (forall k, In k ns -> ~ In k (keys cv)) -> disj (e0 ++ cv) ns.
Proof. intros H1 H2 k Hk. rewrite lookup_app, (H1 k Hk). apply lookup_none_keys. auto. Qed.

Lemma fresh_app e0 cv1 cv2 : fresh e0 (cv1 ++ cv2) -> fresh e0 cv1 /\ fresh (e0 ++ cv1) cv2.
Proof.
  intros [Hnd Hl]. rewrite keys_app in Hnd, Hl. destruct (NoDup_app_inv _ _ Hnd) as [H1 [H2 Hsep]].
  split; (split; [assumption|]).
  - intros k Hk. apply Hl, in_or_app. left. exact Hk.
  - apply disj_app; [intros k Hk; apply Hl, in_or_app; right; exact Hk|]. intros k Hk2 Hk1. exact (Hsep k Hk1 Hk2).
Qed.

Lemma fresh_cons e0 k v cv : fresh e0 ((k,v)::cv) -> lookup k e0 = None /\ fresh (e0 ++ [(k,v)]) cv.
Proof. intros H. destruct (fresh_app e0 [(k,v)] cv H) as [[_ Hk] Hr]. split; [apply Hk; left; reflexivity|exact Hr]. Qed.

Lemma lookup_fresh_mid e0 cv ext k v : fresh e0 cv -> In (k, v) cv -> lookup k (e0 ++ cv ++ ext) = Some v.
Proof.
  intros [Hnd Hl] Hin. rewrite lookup_app, (Hl k), lookup_app, (lookup_in_nodup _ _ _ Hnd Hin); [reflexivity|].
  apply (in_map fst _ _ Hin).
Qed.

Definition bl_of (f:bitf) : nat := match f with BitF _ bl _ => bl end.
Definition zbl (f:bitf) : Z := Z.of_nat (bl_of f).
Lemma zbl_nonneg f : 0 <= zbl f.
Proof. unfold zbl. lia. Qed.

Lemma bits_total_cons f r : Z.of_nat (bits_total (f :: r)) = zbl f + Z.of_nat (bits_total r).
Proof. destruct f as [nm bl fx]. unfold bits_total, zbl. cbn [fold_right bl_of]. lia. Qed.

Lemma bits_total_app a b : bits_total (a ++ b) = (bits_total a + bits_total b)%nat.
Proof. induction a as [|[nm bl fx] r IH]; [reflexivity|]. cbn [app]. unfold bits_total in *. cbn [fold_right]. rewrite IH. lia. Qed.

Lemma bits_total_order lsb l : bits_total (bits_order lsb l) = bits_total l.
Proof.
  destruct lsb; [|reflexivity]. cbn [bits_order]. induction l as [|[nm bl fx] r IH]; [reflexivity|].
  cbn [rev]. rewrite bits_total_app, IH. unfold bits_total. cbn [fold_right]. lia.
Qed.

Lemma bf_names_rev l : bf_names (rev l) = rev (bf_names l).
Proof.
  induction l as [|f r IH]; [reflexivity|]. cbn [rev]. unfold bf_names in *. rewrite flat_map_app, IH. cbn [flat_map].
  rewrite rev_app_distr, app_nil_r. destruct f as [[k|] bl fx]; reflexivity.
Qed.
Lemma bf_names_order_in lsb l k : In k (bf_names (bits_order lsb l)) <-> In k (bf_names l).
Proof. destruct lsb; cbn [bits_order]; [|tauto]. rewrite bf_names_rev. symmetry. apply in_rev. Qed.
Lemma bf_names_order_nodup lsb l : NoDup (bf_names l) -> NoDup (bf_names (bits_order lsb l)).
Proof. destruct lsb; cbn [bits_order]; [|auto]. rewrite bf_names_rev. apply NoDup_rev. Qed.

Definition named (b:bitf) : bool := match b with BitF (Some _) _ _ => true | _ => false end.
Lemma spare_free_bits l p lsb bfs : spare_free_f (FBits l p lsb bfs) = true ->
  forallb named (bits_order lsb bfs) = true /\ bits_total bfs = (8 * bits_len l bfs)%nat.
Proof.
  cbn [spare_free_f]. intros H. apply andb_true_iff in H as [H1 H2]. apply Nat.eqb_eq in H2. split; [|exact H2].
  destruct lsb; cbn [bits_order]; [|exact H1]. rewrite forallb_forall in *. intros f Hin. apply H1, in_rev, Hin.
Qed.

(* 0 for a field without value: harmless, every user first has bits_fit, hence a value for each field (bits_fit_vals) *)
Definition bfv (f:bitf) (e:env) : Z := match bf_val f e with Ok v => v | _ => 0 end.
(* the integer BitFieldSet._to_bytes builds: every field masked and shifted into its own window *)
Fixpoint packed (fs:list bitf) (e:env) (off:Z) : Z :=
  match fs with [] => 0
  | f :: r => let o := off - zbl f in Z.lor (Z.shiftl (Z.land (bfv f e) (2 ^ zbl f - 1)) o) (packed r e o) end.

Lemma enc_bits_packed fs e : (forall f, In f fs -> exists v, bf_val f e = Ok v) ->
  forall off blob, enc_bits (layout fs off) e blob = Ok (Z.lor blob (packed fs e off)).
Proof.
  induction fs as [|f r IH]; intros Hv off blob.
  - cbn [layout enc_bits packed]. rewrite Z.lor_0_r. reflexivity.
  - destruct (Hv f (or_introl eq_refl)) as [v Hf]. destruct f as [nm bl fx].
    cbn [layout enc_bits packed]. rewrite Hf. cbn [bind]. rewrite IH by (intros g Hg; apply Hv; right; exact Hg).
    unfold bfv, zbl. cbn [bl_of]. rewrite Hf, Z.lor_assoc. reflexivity.
Qed.

Lemma packed_nonneg fs e : forall off, 0 <= packed fs e off.
Proof.
  induction fs as [|f r IH]; intros off; cbn [packed]; [lia|]. pose proof (zbl_nonneg f).
  apply Z.lor_nonneg. split; [|apply IH]. apply Z.shiftl_nonneg. rewrite mask_trunc by lia.
  apply Z.mod_pos_bound, Z.pow_pos_nonneg; lia.
Qed.

(* all bits of the packed integer lie inside [off - total, off) *)
Lemma packed_confined fs e : forall off p, Z.of_nat (bits_total fs) <= off ->
  Z.testbit (packed fs e off) p = true -> off - Z.of_nat (bits_total fs) <= p < off.
Proof.
  induction fs as [|f r IH]; intros off p Hoff Hb.
  - cbn [packed] in Hb. rewrite Z.bits_0 in Hb. discriminate.
  - rewrite bits_total_cons in *. pose proof (zbl_nonneg f).
    destruct (Z.lt_ge_cases p 0) as [Hneg|Hp]; [rewrite Z.testbit_neg_r in Hb by lia; discriminate|].
    cbn [packed] in Hb. cbv zeta in Hb. rewrite Z.lor_spec in Hb. apply orb_true_iff in Hb as [Hb|Hb].
    + rewrite field_testbit in Hb by lia. lia.
    + apply IH in Hb; lia.
Qed.

Lemma packed_lt fs e off : Z.of_nat (bits_total fs) <= off -> 0 <= packed fs e off < 2 ^ off.
Proof.
  intros Hoff. split; [apply packed_nonneg|]. apply highclear_lt; [lia|apply packed_nonneg|].
  intros p Hp. destruct (Z.testbit (packed fs e off) p) eqn:E; [|reflexivity].
  apply packed_confined in E; lia.
Qed.

(* below the window of the first field comes the rest *)
Lemma packed_tail nm bl fx r e off p : p < off - Z.of_nat bl ->
  Z.testbit (packed (BitF nm bl fx :: r) e off) p = Z.testbit (packed r e (off - Z.of_nat bl)) p.
Proof.
  intros Hp. destruct (Z.lt_ge_cases p 0) as [Hn|Hp0]; [rewrite !Z.testbit_neg_r by lia; reflexivity|].
  cbn [packed]. unfold zbl. cbn [bl_of]. rewrite Z.lor_spec, field_testbit by lia.
  destruct (Z.leb_spec (off - Z.of_nat bl) p); [lia|]. reflexivity.
Qed.

(* bits_fit fs e cv: e supplies an integer for every named non-fixed field (ANY integer: an over-wide or negative
   value is reduced modulo 2^bl by the mask), fixed values are inside their width; cv is what dec_val stores, in
   processing order. *)
Inductive bits_fit : list bitf -> env -> env -> Prop :=
| bf_nil e : bits_fit [] e []
| bf_spare bl fx r e cv : bits_fit r e cv -> bits_fit (BitF None bl fx :: r) e cv
| bf_named k bl z r e cv : lookup k e = Some (VInt z) ->
    bits_fit r e cv -> bits_fit (BitF (Some k) bl None :: r) e ((k, VInt (z mod 2 ^ Z.of_nat bl)) :: cv)
| bf_fixed k bl c r e cv : 0 <= c < 2 ^ Z.of_nat bl ->
    bits_fit r e cv -> bits_fit (BitF (Some k) bl (Some c) :: r) e ((k, VInt c) :: cv).

(* bit-field values that are inside their width are stored unchanged *)
Lemma bf_named_r k bl z r e cv : lookup k e = Some (VInt z) -> 0 <= z < 2 ^ Z.of_nat bl ->
  bits_fit r e cv -> bits_fit (BitF (Some k) bl None :: r) e ((k, VInt z) :: cv).
Proof. intros Hl Hz Hr. rewrite <- (Z.mod_small z (2 ^ Z.of_nat bl)) at 1 by exact Hz. constructor; assumption. Qed.

Lemma bits_fit_vals fs e cv : bits_fit fs e cv -> forall f, In f fs -> exists v, bf_val f e = Ok v.
Proof.
  induction 1 as [e|bl fx r e cv Hr IH|k bl z r e cv Hl Hr IH|k bl c r e cv Hc Hr IH]; intros f Hin.
  - destruct Hin.
  - destruct Hin as [<-|Hin]; [exists 0; reflexivity|auto].
  - destruct Hin as [<-|Hin]; [exists z; cbn [bf_val]; rewrite Hl; reflexivity|auto].
  - destruct Hin as [<-|Hin]; [exists c; reflexivity|auto].
Qed.

Lemma bits_fit_keys fs e cv : bits_fit fs e cv -> forall k, In k (keys cv) -> In k (bf_names fs).
Proof.
  induction 1 as [e|bl fx r e cv Hr IH|k0 bl z r e cv Hl Hr IH|k0 bl c r e cv Hc Hr IH]; intros k Hin.
  - destruct Hin.
  - apply IH, Hin.
  - destruct Hin as [<-|Hin]; [left; reflexivity|right; apply IH, Hin].
  - destruct Hin as [<-|Hin]; [left; reflexivity|right; apply IH, Hin].
Qed.

Lemma bits_fit_fixed fs e cv : bits_fit fs e cv -> forall k bl c, In (BitF (Some k) bl (Some c)) fs -> In (k, VInt c) cv.
Proof.
  induction 1 as [e|bl0 fx r e cv Hr IH|k0 bl0 z r e cv Hl Hr IH|k0 bl0 c0 r e cv Hc Hr IH]; intros k bl c Hin.
  - destruct Hin.
  - destruct Hin as [E|Hin]; [discriminate|eauto].
  - destruct Hin as [E|Hin]; [discriminate|right; eauto].
  - destruct Hin as [E|Hin]; [injection E as -> -> ->; left; reflexivity|right; eauto].
Qed.

Lemma enc_bits_agree fs e E' cv : bits_fit fs e cv -> (forall k v, In (k, v) cv -> lookup k E' = Some v) ->
  forall off blob, enc_bits (layout fs off) E' blob = enc_bits (layout fs off) e blob.
Proof.
  induction 1 as [e|bl fx r e cv Hr IH|k bl z r e cv Hl Hr IH|k bl c r e cv Hc Hr IH]; intros HE off blob.
  - reflexivity.
  - cbn [layout enc_bits bf_val bind]. apply IH, HE.
  - cbn [layout enc_bits bf_val]. rewrite Hl. rewrite (HE k _ (or_introl eq_refl)). cbn [bind].
    rewrite mask_mod by lia. apply IH. intros k' v' Hin. apply HE. right. exact Hin.
  - cbn [layout enc_bits bf_val bind]. apply IH. intros k' v' Hin. apply HE. right. exact Hin.
Qed.

(* the stored values, each weighted by the offset of its field; reserved fields contribute nothing; cv is consumed in
   step with the named fields *)
Fixpoint weigh (fs:list bitf) (cv:env) (off:Z) : Z :=
  match fs with
  | [] => 0
  | BitF None bl _ :: r => weigh r cv (off - Z.of_nat bl)
  | BitF (Some _) bl _ :: r =>
      match cv with (_, VInt z) :: cv' => z * 2 ^ (off - Z.of_nat bl) + weigh r cv' (off - Z.of_nat bl) | _ => 0 end
  end.

Lemma packed_cons f r e off : Z.of_nat (bits_total r) <= off - zbl f ->
  packed (f :: r) e off = bfv f e mod 2 ^ zbl f * 2 ^ (off - zbl f) + packed r e (off - zbl f).
Proof.
  intros Hr. pose proof (zbl_nonneg f) as Hz. cbn [packed]. cbv zeta. rewrite mask_trunc by exact Hz.
  apply lor_shift_add; [lia|apply packed_lt, Hr|apply Z.mod_pos_bound; lia].
Qed.

Lemma packed_fit fs e cv : bits_fit fs e cv -> forall off, Z.of_nat (bits_total fs) <= off -> packed fs e off = weigh fs cv off.
Proof.
  induction 1 as [e|bl fx r e cv Hr IH|k bl z r e cv Hl Hr IH|k bl c r e cv Hc Hr IH]; intros off Hoff; [reflexivity| | |];
    rewrite bits_total_cons in Hoff; rewrite packed_cons by lia; unfold zbl, bfv in *; cbn [bl_of bf_val weigh] in *; rewrite IH by lia.
  - rewrite Z.mod_0_l by lia. lia.
  - rewrite Hl. reflexivity.
  - rewrite Z.mod_small by exact Hc. reflexivity.
Qed.

(* the window of the first field, read from any blob that agrees with the packed integer on that window *)
Lemma window_of_packed nm bl fx r e off blob : Z.of_nat bl + Z.of_nat (bits_total r) <= off ->
  (forall p, off - Z.of_nat bl <= p < off -> Z.testbit blob p = Z.testbit (packed (BitF nm bl fx :: r) e off) p) ->
  Z.land (Z.shiftr blob (off - Z.of_nat bl)) (2 ^ Z.of_nat bl - 1) = bfv (BitF nm bl fx) e mod 2 ^ Z.of_nat bl.
Proof.
  intros Hoff Hag. rewrite (window_ext blob (packed (BitF nm bl fx :: r) e off)) by (lia || (intros p Hp; apply Hag; lia)).
  cbn [packed]. unfold zbl. cbn [bl_of]. rewrite Z.lor_comm. apply extract_window; [lia|lia|].
  intros p Hp. destruct (Z.testbit (packed r e (off - Z.of_nat bl)) p) eqn:E; [apply packed_confined in E; lia|reflexivity].
Qed.

(* decoding any blob that agrees with the packed integer on the windows of the set gives back the values *)
Lemma dec_bits_packed fs e cv : bits_fit fs e cv ->
  forall off blob e0, Z.of_nat (bits_total fs) <= off ->
  (forall p, off - Z.of_nat (bits_total fs) <= p < off -> Z.testbit blob p = Z.testbit (packed fs e off) p) ->
  fresh e0 cv -> dec_bits (layout fs off) blob e0 = Ok (e0 ++ cv).
Proof.
  induction 1 as [e|bl fx r e cv Hr IH|k bl z r e cv Hl Hr IH|k bl c r e cv Hc Hr IH]; intros off blob e0 Hoff Hag Hfr;
    [cbn [layout dec_bits]; rewrite app_nil_r; reflexivity| | |];
    rewrite bits_total_cons in Hoff, Hag; unfold zbl in Hoff, Hag; cbn [bl_of] in Hoff, Hag;
    (* the rest of the set reads the same blob below the window of the first field *)
    assert (Hag' : forall p, off - Z.of_nat bl - Z.of_nat (bits_total r) <= p < off - Z.of_nat bl ->
                   Z.testbit blob p = Z.testbit (packed r e (off - Z.of_nat bl)) p)
      by (intros p Hp; rewrite Hag, packed_tail by lia; reflexivity);
    cbn [layout dec_bits].
  - apply IH; [lia|exact Hag'|exact Hfr].
  - rewrite (window_of_packed (Some k) bl None r e off blob Hoff) by (intros p Hp; apply Hag; lia).
    unfold bfv. cbn [bf_val]. rewrite Hl. destruct (fresh_cons _ _ _ _ Hfr) as [Hk Hfr'].
    rewrite eset_fresh, IH by (assumption || lia). rewrite <- app_assoc. reflexivity.
  - rewrite (window_of_packed (Some k) bl (Some c) r e off blob Hoff) by (intros p Hp; apply Hag; lia).
    unfold bfv. cbn [bf_val]. rewrite Z.mod_small, Z.eqb_refl by exact Hc. destruct (fresh_cons _ _ _ _ Hfr) as [Hk Hfr'].
    rewrite eset_fresh, IH by (assumption || lia). rewrite <- app_assoc. reflexivity.
Qed.

(* a first field whose value is what its window of the blob holds packs back to the bits of that window *)
Lemma packed_head_window nm bl fx r E off blob p : Z.of_nat bl + Z.of_nat (bits_total r) <= off -> off - Z.of_nat bl <= p < off ->
  bfv (BitF nm bl fx) E = Z.land (Z.shiftr blob (off - Z.of_nat bl)) (2 ^ Z.of_nat bl - 1) ->
  Z.testbit (packed (BitF nm bl fx :: r) E off) p = Z.testbit blob p.
Proof.
  intros Hoff Hp Hv. cbn [packed]. unfold zbl. cbn [bl_of]. rewrite Hv, Z.lor_spec, replace_window_testbit by lia.
  destruct (Z.leb_spec (off - Z.of_nat bl) p); [|lia]. destruct (Z.ltb_spec p (off - Z.of_nat bl + Z.of_nat bl)); [|lia].
  destruct (Z.testbit (packed r E (off - Z.of_nat bl)) p) eqn:Et; [apply packed_confined in Et; lia|apply orb_false_r].
Qed.

(* conversely, whatever blob decodes: the values stored fit (for every dict E that holds them), and if no field of
   the set is a spare, packing them again reproduces the bits of the blob inside the windows of the set *)
Lemma dec_bits_fit fs : forall off blob e0 e1,
  dec_bits (layout fs off) blob e0 = Ok e1 -> disj e0 (bf_names fs) -> NoDup (bf_names fs) ->
  exists bcv, e1 = e0 ++ bcv /\ keys bcv = bf_names fs /\
    forall E, (forall k v, In (k, v) bcv -> lookup k E = Some v) ->
      bits_fit fs E bcv /\
      (forallb named fs = true -> Z.of_nat (bits_total fs) <= off ->
       forall p, off - Z.of_nat (bits_total fs) <= p < off -> Z.testbit (packed fs E off) p = Z.testbit blob p).
Proof.
  induction fs as [|[nm bl fx] r IH]; intros off blob e0 e1 Hd Hdis Hnd.
  - cbn [layout dec_bits] in Hd. injection Hd as <-. exists []. rewrite app_nil_r. split; [reflexivity|]. split; [reflexivity|].
    intros E _. split; [constructor|]. unfold bits_total. cbn [fold_right]. lia.
  - cbn [layout dec_bits] in Hd. unfold bf_names in Hdis, Hnd. cbn [flat_map] in Hdis, Hnd. destruct nm as [k|].
    + cbv zeta in Hd. set (v := Z.land (Z.shiftr blob (off - Z.of_nat bl)) (2 ^ Z.of_nat bl - 1)) in *.
      assert (Hv : 0 <= v < 2 ^ Z.of_nat bl).
      { subst v. rewrite mask_trunc by lia. apply Z.mod_pos_bound, Z.pow_pos_nonneg; lia. }
      cbn [app] in Hdis, Hnd. inversion Hnd as [|? ? Hni Hnd']; subst.
      assert (Hk : lookup k e0 = None) by (apply Hdis; left; reflexivity).
      rewrite (eset_fresh k _ e0 Hk) in Hd.
      assert (Hrec : dec_bits (layout r (off - Z.of_nat bl)) blob (e0 ++ [(k, VInt v)]) = Ok e1 /\ (fx = None \/ fx = Some v)).
      { destruct fx as [c|]; [|auto]. destruct (Z.eqb_spec v c) as [<-|_]; [auto|discriminate]. }
      destruct Hrec as [Hrec Hfx].
      destruct (IH _ _ _ _ Hrec) as [bcv [He1 [Hkeys Hboth]]]; [|exact Hnd'|].
      { apply disj_app; [intros k' Hk'; apply Hdis; right; exact Hk'|]. intros k' Hk' [<-|[]]. contradiction. }
      exists ((k, VInt v) :: bcv). split; [rewrite He1, <- app_assoc; reflexivity|].
      split; [cbn [keys map fst]; unfold keys in Hkeys; rewrite Hkeys; reflexivity|].
      intros E HE. destruct (Hboth E) as [Hr Hex]; [intros k' v' Hin; apply HE; right; exact Hin|].
      pose proof (HE k _ (or_introl eq_refl)) as HkE. split.
      * destruct Hfx as [->| ->]; [apply bf_named_r|constructor]; assumption.
      * intros Hnamed Hoff p Hp. rewrite bits_total_cons in Hoff, Hp. unfold zbl in Hoff, Hp. cbn [bl_of] in Hoff, Hp.
        destruct (Z.lt_ge_cases p (off - Z.of_nat bl)) as [Hlt|Hge].
        -- rewrite packed_tail by exact Hlt. apply Hex; [exact Hnamed|clear - Hoff; lia|clear - Hp Hlt; lia].
        -- apply packed_head_window; [exact Hoff|clear - Hp Hge; lia|].
           unfold bfv. destruct Hfx as [->| ->]; cbn [bf_val]; [rewrite HkE|]; reflexivity.
    + cbn [app] in Hdis, Hnd. destruct (IH _ _ _ _ Hd Hdis Hnd) as [bcv [He1 [Hkeys Hboth]]].
      exists bcv. split; [exact He1|]. split; [exact Hkeys|]. intros E HE. split; [|discriminate].
      constructor. apply Hboth, HE.
Qed.

Definition bits_wf (l:lensrc) (bfs:list bitf) : Prop :=
  (1 <= bits_len l bfs)%nat /\ (bits_total bfs <= 8 * bits_len l bfs)%nat.

Lemma pow_octets n : 2 ^ (8 * Z.of_nat n) = 256 ^ Z.of_nat n.
Proof. rewrite Z.pow_mul_r by lia. reflexivity. Qed.

Lemma bits_enc l lsb bfs e cv :
  bits_wf l bfs -> bits_fit (bits_order lsb bfs) e cv ->
  let blob := packed (bits_order lsb bfs) e (8 * Z.of_nat (bits_len l bfs)) in
  enc_bits (bits_layout l lsb bfs) e 0 = Ok blob /\
  enc_int (bits_len l bfs) false false blob = Ok (to_be (bits_len l bfs) blob) /\
  0 <= blob < 256 ^ Z.of_nat (bits_len l bfs).
Proof.
  intros [Hn Ht] Hfit blob. assert (Hlt : 0 <= blob < 256 ^ Z.of_nat (bits_len l bfs)).
  { rewrite <- pow_octets. apply packed_lt. rewrite bits_total_order. lia. }
  split; [|split; [apply enc_uint_be; assumption|exact Hlt]].
  unfold bits_layout. rewrite (enc_bits_packed _ e (bits_fit_vals _ _ _ Hfit)), Z.lor_0_l. reflexivity.
Qed.

Lemma bits_blob l lsb bfs e cv : bits_wf l bfs -> bits_fit (bits_order lsb bfs) e cv ->
  exists blob, enc_bits (bits_layout l lsb bfs) e 0 = Ok blob /\ 0 <= blob < 256 ^ Z.of_nat (bits_len l bfs) /\
    forall e0, fresh e0 cv -> dec_bits (bits_layout l lsb bfs) blob e0 = Ok (e0 ++ cv).
Proof.
  intros Hwf Hfit. destruct (bits_enc l lsb bfs e cv Hwf Hfit) as [H1 [_ H3]]. eexists. split; [exact H1|]. split; [exact H3|].
  intros e0 Hfr. apply (dec_bits_packed _ e cv Hfit); [rewrite bits_total_order; destruct Hwf; lia|reflexivity|exact Hfr].
Qed.

(* the packed integer of fitting values decodes to those values *)
Lemma dec_bits_of_blob l lsb bfs e bcv blob e0 : bits_wf l bfs -> bits_fit (bits_order lsb bfs) e bcv ->
  enc_bits (bits_layout l lsb bfs) e 0 = Ok blob -> fresh e0 bcv ->
  dec_bits (bits_layout l lsb bfs) blob e0 = Ok (e0 ++ bcv).
Proof.
  intros Hwf Hbf Hblob Hfr. destruct (bits_blob l lsb bfs e bcv Hwf Hbf) as [blob' [H1 [_ H3]]].
  rewrite H1 in Hblob. injection Hblob as <-. apply H3, Hfr.
Qed.

(* a set that fills its octets: values whose packed integer has the bits of the octets d are written back as d *)
Lemma bits_reencode l lsb bfs E bcv d :
  bits_wf l bfs -> bytes_ok d -> length d = bits_len l bfs -> bits_fit (bits_order lsb bfs) E bcv ->
  (forall p, 0 <= p < 8 * Z.of_nat (bits_len l bfs) ->
     Z.testbit (packed (bits_order lsb bfs) E (8 * Z.of_nat (bits_len l bfs))) p = Z.testbit (from_be d) p) ->
  (blob <- enc_bits (bits_layout l lsb bfs) E 0 ;; enc_int (bits_len l bfs) false false blob) = Ok d.
Proof.
  intros [Hn Ht] Hb Hld Hfit Hbits. unfold bits_layout. set (fs := bits_order lsb bfs) in *. set (n := bits_len l bfs) in *.
  assert (Htot : Z.of_nat (bits_total fs) <= 8 * Z.of_nat n) by (subst fs; rewrite bits_total_order; lia).
  rewrite (enc_bits_packed fs E (bits_fit_vals _ _ _ Hfit)). cbn [bind]. rewrite Z.lor_0_l.
  assert (Hblob : 0 <= from_be d < 256 ^ Z.of_nat n) by (rewrite <- Hld; apply from_be_range, Hb).
  assert (Heq : packed fs E (8 * Z.of_nat n) = from_be d).
  { apply Z.bits_inj'. intros p Hp. destruct (Z.lt_ge_cases p (8 * Z.of_nat n)) as [Hlt|Hge]; [apply Hbits; lia|].
    rewrite (lt_highclear (packed fs E (8 * Z.of_nat n)) (8 * Z.of_nat n) p); [|apply packed_lt, Htot|exact Hge].
    rewrite (lt_highclear (from_be d) (8 * Z.of_nat n) p); [reflexivity|rewrite pow_octets; exact Hblob|exact Hge]. }
  rewrite Heq, enc_uint_be by assumption. subst n. rewrite <- Hld, to_from_be by exact Hb. reflexivity.
Qed.

(* ignored on receipt: dec_bits only looks at the windows of named fields *)
Definition same_window (blob blob':Z) (x:bitf * Z * Z) : Prop :=
  match x with (BitF (Some _) _ _, o, m) => Z.land (Z.shiftr blob o) m = Z.land (Z.shiftr blob' o) m | _ => True end.
Lemma dec_bits_ext lay blob blob' : Forall (same_window blob blob') lay -> forall e, dec_bits lay blob e = dec_bits lay blob' e.
Proof.
  induction 1 as [|[[[[k|] bl fx] o] m] r Hx _ IH]; intros e; cbn [dec_bits]; [reflexivity| |apply IH].
  cbv zeta. cbn [same_window] in Hx. rewrite Hx. destruct fx as [c|]; [destruct (_ =? c); [apply IH|reflexivity]|apply IH].
Qed.
