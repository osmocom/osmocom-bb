(* C08: what each scheduler function does to a well-formed state, as equations on the ring read relative to the current
   position ([bucket_due st d] is the frame d ahead), and preservation of well-formedness. *)
From Coq Require Import ZArith List Bool Lia Permutation ZifyBool.
From OBB Require Import Gen.FwSchedConst Model.TdmaSched Proofs.TdmaSchedSpec Proofs.TdmaSchedSortP.
Import ListNotations.
Open Scope Z_scope.
(* lets lia decide the goals about positions modulo 25; switched off again at the end of the file *)
Ltac Zify.zify_post_hook ::= Z.to_euclidean_division_equations.

Lemma Forall_upd {A} (P : A -> Prop) (l : list A) n v : Forall P l -> P v -> Forall P (upd l n v).
Proof.
  intros H Hv. revert n. induction H as [|x r Hx Hr IH]; intros [|n]; cbn [upd]; constructor; auto.
Qed.

Lemma Forall_nth_d {A} (P : A -> Prop) (l : list A) n d : Forall P l -> P d -> P (nth n l d).
Proof. intros H Hd. revert n. induction H as [|x r Hx Hr IH]; intros [|n]; cbn [nth]; auto. Qed.

(* the value is below 25, so neither the uint16 nor the uint8 conversion changes it *)
Lemma wrap_bucket_ok cur off : wrap_bucket cur off = (cur + off) mod 25.
Proof.
  unfold wrap_bucket, u8, u16. rewrite nb_eq. pose proof (Z.mod_pos_bound (cur + off) 25 eq_refl).
  rewrite (Z.mod_small _ 65536), Z.mod_small by lia. reflexivity.
Qed.

Lemma ring_pred x d : 0 <= x < 25 -> 0 <= d < 25 -> ((x - 1) mod 25 =? d) = (x =? (d + 1) mod 25).
Proof. lia. Qed.

Lemma cur_set_bucket st j b : s_cur (set_bucket st j b) = s_cur st.
Proof. reflexivity. Qed.

Lemma abs_set_bucket_eq st j b : wf st -> 0 <= j < 25 -> bucket_abs (set_bucket st j b) j = b.
Proof. intros (Hl & _) Hj. unfold bucket_abs, set_bucket. cbn [s_bk]. apply nth_error_nth, nth_error_upd_eq. lia. Qed.

Lemma abs_set_bucket_neq st j k b : 0 <= j -> 0 <= k -> j <> k -> bucket_abs (set_bucket st j b) k = bucket_abs st k.
Proof.
  intros Hj Hk Hne. unfold bucket_abs, set_bucket. cbn [s_bk].
  rewrite <- !nth_default_eq. unfold nth_default. rewrite nth_error_upd_neq by lia. reflexivity.
Qed.

Lemma wf_set_bucket st j b : wf st -> (length b <= 8)%nat -> wf (set_bucket st j b).
Proof.
  intros (Hl & Hc & Hall) Hb. unfold wf, set_bucket. cbn [s_bk s_cur]. rewrite upd_length.
  repeat split; try lia; try exact Hl. apply Forall_upd; assumption.
Qed.

Lemma cbs_set_bucket st j b : cbs_ok st -> Forall (fun it => i_cb it <> 0) b -> cbs_ok (set_bucket st j b).
Proof. intros H Hb. unfold cbs_ok, set_bucket. cbn [s_bk]. apply Forall_upd; assumption. Qed.

Lemma abs_len st j : wf st -> (length (bucket_abs st j) <= 8)%nat.
Proof. intros (_ & _ & Hall). unfold bucket_abs. apply Forall_nth_d; [exact Hall|cbn; lia]. Qed.

Lemma abs_cbs st j : cbs_ok st -> Forall (fun it => i_cb it <> 0) (bucket_abs st j).
Proof. intros H. unfold bucket_abs. apply Forall_nth_d; [exact H|constructor]. Qed.

Lemma abs_nth_error st j : wf st -> 0 <= j < 25 -> nth_error (s_bk st) (Z.to_nat j) = Some (bucket_abs st j).
Proof. intros (Hl & _) Hj. unfold bucket_abs. apply nth_error_nth'. lia. Qed.

Lemma bucket_due_0 st : wf st -> bucket_due st 0 = bucket_abs st (s_cur st).
Proof. intros (_ & Hc & _). unfold bucket_due. f_equal. lia. Qed.

Lemma due_len st d : wf st -> (length (bucket_due st d) <= 8)%nat.
Proof. apply abs_len. Qed.

Lemma bucket_due_set_bucket st N b d : wf st -> 0 <= N < 25 -> 0 <= d < 25 ->
  bucket_due (set_bucket st ((s_cur st + N) mod 25) b) d = if N =? d then b else bucket_due st d.
Proof.
  intros Hwf HN Hd. pose proof Hwf as (_ & Hc & _). unfold bucket_due. rewrite cur_set_bucket.
  destruct (N =? d) eqn:E.
  - replace d with N by lia. apply abs_set_bucket_eq; [exact Hwf|lia].
  - apply abs_set_bucket_neq; lia.
Qed.

Lemma bucket_due_clear st d : wf st -> 0 <= d < 25 ->
  bucket_due (set_bucket st (s_cur st) []) d = if d =? 0 then [] else bucket_due st d.
Proof.
  intros Hwf Hd. rewrite Z.eqb_sym, <- (bucket_due_set_bucket st 0 [] d) by (assumption || lia).
  do 2 f_equal. destruct Hwf as (_ & Hc & _). lia.
Qed.

Lemma schedule_spec st off it : wf st ->
  tdma_schedule st off it =
    if 8 <=? Z.of_nat (length (bucket_due st off)) then Ok (st, -1)
    else Ok (set_bucket st ((s_cur st + off) mod 25) (bucket_due st off ++ [it]), 0).
Proof.
  intros Hwf. unfold tdma_schedule, bucket_due. rewrite wrap_bucket_ok, ni_eq.
  rewrite abs_nth_error by (assumption || lia). reflexivity.
Qed.

Lemma overflow_reported st N it : wf st -> 0 <= N < 25 ->
  ((length (bucket_due st N) >= 8)%nat -> tdma_schedule st N it = Ok (st, -1)) /\
  ((length (bucket_due st N) < 8)%nat -> exists st', tdma_schedule st N it = Ok (st', 0) /\ s_cur st' = s_cur st /\
      bucket_due st' N = bucket_due st N ++ [it] /\ forall d, 0 <= d < 25 -> d <> N -> bucket_due st' d = bucket_due st d).
Proof.
  intros Hwf HN. rewrite schedule_spec by exact Hwf. split; intros Hlen.
  - replace (8 <=? _) with true by lia. reflexivity.
  - replace (8 <=? _) with false by lia. eexists. split; [reflexivity|]. split; [reflexivity|]. split.
    + rewrite bucket_due_set_bucket, Z.eqb_refl by assumption. reflexivity.
    + intros d Hd Hne. rewrite bucket_due_set_bucket by assumption. replace (N =? d) with false by lia. reflexivity.
Qed.

Lemma set_plan_frames p3 : forall set k plan, set_plan k set p3 = Some plan ->
  Forall (fun e => k <= fst e <= k + set_nframes set /\ i_cb (snd e) <> 0) plan /\ 0 <= set_nframes set.
Proof.
  induction set as [|it r IH]; intros k plan Hp; cbn [set_plan set_nframes] in *; [discriminate|].
  destruct (i_cb it =? 1) eqn:E1.
  - injection Hp as <-. split; [constructor|lia].
  - destruct (i_cb it =? 0) eqn:E0.
    + destruct (IH (k + 1) plan Hp) as (HF & Hn). split; [|lia].
      eapply Forall_impl; [|exact HF]. cbv beta. intros e He. lia.
    + destruct (set_plan k r p3) as [pl|] eqn:Ep; [|discriminate]. injection Hp as <-.
      destruct (IH k pl Ep) as (HF & Hn). split; [|lia].
      constructor; [cbn [fst snd with_p3 i_cb]; lia|exact HF].
Qed.

(* the uint8 `++frame_offset` does not wrap as long as the set ends before offset 256 *)
Lemma set_plan_place p3 : forall set st off k plan,
  0 <= off + k -> off + k + set_nframes set <= 255 ->
  set_plan k set p3 = Some plan ->
  sched_set st (off + k) (wrap_bucket (s_cur st) (off + k)) k set p3 = place st off plan (k + set_nframes set).
Proof.
  induction set as [|it r IH]; intros st off k plan H0 Hb Hp; cbn [set_plan] in Hp; [discriminate|].
  cbn [sched_set set_nframes] in *. unfold CB_END_SET, CB_NULL.
  destruct (i_cb it =? 1) eqn:E1.
  - injection Hp as <-. cbn [place]. rewrite Z.add_0_r. reflexivity.
  - destruct (i_cb it =? 0) eqn:E0.
    + pose proof (set_plan_frames p3 r (k + 1) plan Hp) as (_ & Hn0).
      replace (u8 (off + k + 1)) with (off + (k + 1)) by (unfold u8; lia).
      rewrite (IH st off (k + 1) plan) by (assumption || lia). f_equal. lia.
    + destruct (set_plan k r p3) as [pl|] eqn:Ep; [|discriminate]. injection Hp as <-.
      cbn [place]. unfold tdma_schedule.
      destruct (nth_error (s_bk st) (Z.to_nat (wrap_bucket (s_cur st) (off + k)))) as [b|]; [|reflexivity].
      destruct (c_NITEMS <=? Z.of_nat (length b)); [reflexivity|].
      change (0 =? 0) with true. cbv iota.
      exact (IH (set_bucket st (wrap_bucket (s_cur st) (off + k)) (b ++ [with_p3 it p3])) off k pl H0 Hb Ep).
Qed.

Lemma schedule_set_place st off set p3 plan :
  0 <= off -> off + set_nframes set <= 255 -> set_plan 0 set p3 = Some plan ->
  tdma_schedule_set st off set p3 = place st off plan (set_nframes set).
Proof.
  intros H0 Hb Hp. unfold tdma_schedule_set.
  pose proof (set_plan_place p3 set st off 0 plan) as H. rewrite Z.add_0_r in H. apply H; assumption.
Qed.

Lemma advance_spec st : s_cur (tdma_sched_advance st) = (s_cur st + 1) mod 25 /\ s_bk (tdma_sched_advance st) = s_bk st.
Proof. split; [apply wrap_bucket_ok|reflexivity]. Qed.

Lemma wf_advance st : wf st -> wf (tdma_sched_advance st).
Proof.
  intros Hwf. destruct (advance_spec st) as (Hc & Hb). pose proof Hwf as (Hl & Hcur & Hall).
  unfold wf. rewrite Hc, Hb. repeat split; try assumption; lia.
Qed.

Lemma bucket_due_advance st d : bucket_due (tdma_sched_advance st) d = bucket_due st ((d + 1) mod 25).
Proof.
  destruct (advance_spec st) as (Hc & Hb).
  unfold bucket_due, bucket_abs. rewrite Hc, Hb, Zplus_mod_idemp_l, Zplus_mod_idemp_r. do 3 f_equal. lia.
Qed.

Lemma reset_from_length cur : forall bk j, length (reset_from j cur bk) = length bk.
Proof. induction bk as [|b r IH]; intros j; cbn [reset_from length]; [reflexivity|]. rewrite IH. reflexivity. Qed.

Lemma reset_from_nth cur : forall bk j k, nth k (reset_from j cur bk) [] = if j + Z.of_nat k =? cur then nth k bk [] else [].
Proof.
  induction bk as [|b r IH]; intros j k; cbn [reset_from].
  - destruct k; cbn [nth]; destruct (_ =? _); reflexivity.
  - destruct k as [|k]; cbn [nth].
    + replace (j + Z.of_nat 0) with j by lia. destruct (j =? cur); reflexivity.
    + rewrite IH. replace (j + 1 + Z.of_nat k) with (j + Z.of_nat (S k)) by lia. reflexivity.
Qed.

Lemma reset_from_Forall (P : list item -> Prop) cur : forall bk j, P [] -> Forall P bk -> Forall P (reset_from j cur bk).
Proof.
  induction bk as [|b r IH]; intros j Hn H; cbn [reset_from]; [constructor|].
  inversion H as [|? ? Hb Hr]; subst. constructor; [destruct (j =? cur); assumption|apply IH; assumption].
Qed.

Lemma reset_from_concat cur : forall bk j,
  concat (reset_from j cur bk) = if j <=? cur then nth (Z.to_nat (cur - j)) bk [] else [].
Proof.
  induction bk as [|b r IH]; intros j; cbn [reset_from concat].
  - destruct (j <=? cur); [destruct (Z.to_nat (cur - j))|]; reflexivity.
  - rewrite IH. destruct (j =? cur) eqn:Ej.
    + replace (j + 1 <=? cur) with false by lia. replace (j <=? cur) with true by lia.
      replace (Z.to_nat (cur - j)) with O by lia. apply app_nil_r.
    + destruct (j + 1 <=? cur) eqn:E1.
      * replace (j <=? cur) with true by lia.
        replace (Z.to_nat (cur - j)) with (S (Z.to_nat (cur - (j + 1)))) by lia. reflexivity.
      * replace (j <=? cur) with false by lia. reflexivity.
Qed.

Lemma reset_abs st j : 0 <= j -> bucket_abs (tdma_sched_reset st) j = if j =? s_cur st then bucket_abs st j else [].
Proof.
  intros Hj. unfold bucket_abs, tdma_sched_reset. cbn [s_bk]. rewrite reset_from_nth.
  replace (0 + Z.of_nat (Z.to_nat j)) with j by lia. reflexivity.
Qed.

Lemma reset_stored st : wf st -> stored (tdma_sched_reset st) = Z.of_nat (length (bucket_abs st (s_cur st))).
Proof.
  intros (_ & Hc & _). unfold stored, tdma_sched_reset. cbn [s_bk]. rewrite reset_from_concat.
  replace (0 <=? s_cur st) with true by lia. rewrite Z.sub_0_r. reflexivity.
Qed.

Lemma wf_reset st : wf st -> wf (tdma_sched_reset st).
Proof.
  intros (Hl & Hc & Hall). unfold wf, tdma_sched_reset. cbn [s_bk s_cur]. rewrite reset_from_length.
  repeat split; try assumption; try lia. apply reset_from_Forall; [cbn; lia|exact Hall].
Qed.

Lemma cbs_reset st : cbs_ok st -> cbs_ok (tdma_sched_reset st).
Proof. intros H. unfold cbs_ok, tdma_sched_reset. cbn [s_bk]. apply reset_from_Forall; [constructor|exact H]. Qed.

Lemma bucket_due_reset st d : wf st -> 0 <= d < 25 ->
  bucket_due (tdma_sched_reset st) d = if d =? 0 then bucket_due st 0 else [].
Proof.
  intros (_ & Hc & _) Hd. unfold bucket_due. cbn [tdma_sched_reset s_cur]. rewrite reset_abs by lia.
  destruct (d =? 0) eqn:E.
  - replace (_ =? s_cur st) with true by lia. do 2 f_equal. lia.
  - replace (_ =? s_cur st) with false by lia. reflexivity.
Qed.

Lemma run_items_all rcf xs : Forall (fun it => i_cb it <> 0) xs -> (forall x, 0 <= rcf x) -> run_items rcf xs = (xs, SDone).
Proof.
  intros H Hr. induction H as [|it r Hi Hrest IH]; cbn [run_items]; [reflexivity|].
  unfold CB_NULL. replace (i_cb it =? 0) with false by lia. specialize (Hr it). replace (rcf it <? 0) with false by lia.
  rewrite IH. reflexivity.
Qed.

Lemma run_items_no_null rcf xs : Forall (fun it => i_cb it <> 0) xs -> snd (run_items rcf xs) <> SNull.
Proof.
  intros H. induction H as [|it r Hi Hrest IH]; cbn [run_items]; [cbn; discriminate|].
  unfold CB_NULL. replace (i_cb it =? 0) with false by lia.
  destruct (rcf it <? 0); [cbn; discriminate|]. destruct (run_items rcf r) as [lg s]. exact IH.
Qed.

Lemma execute_run rcf st : wf st ->
  tdma_sched_execute rcf st =
    match run_items rcf (exec_order (bucket_due st 0)) with
    | (lg, SDone) => XOk (set_bucket st (s_cur st) []) lg (Z.of_nat (length lg))
    | (lg, SFail rc) => XOk st lg rc
    | (lg, SNull) => XNull lg
    end.
Proof.
  intros Hwf. pose proof (due_len st 0 Hwf) as Hlen. unfold tdma_sched_execute.
  rewrite abs_nth_error, <- bucket_due_0, ni_eq, ncb_eq by (assumption || apply Hwf).
  replace (_ || _) with false by lia. reflexivity.
Qed.

Lemma exec_order_cbs st : wf st -> cbs_ok st -> Forall (fun it => i_cb it <> 0) (exec_order (bucket_due st 0)).
Proof.
  intros Hwf Hcb. eapply Permutation_Forall; [symmetry; apply exec_order_perm, due_len, Hwf|apply abs_cbs, Hcb].
Qed.

Lemma execute_spec rcf st : wf st -> cbs_ok st -> (forall x, 0 <= rcf x) ->
  tdma_sched_execute rcf st =
    XOk (set_bucket st (s_cur st) []) (exec_order (bucket_due st 0)) (Z.of_nat (length (bucket_due st 0))).
Proof.
  intros Hwf Hcb Hr. rewrite execute_run by exact Hwf.
  rewrite run_items_all; [|apply exec_order_cbs; assumption|exact Hr].
  rewrite (Permutation_length (exec_order_perm _ (due_len st 0 Hwf))). reflexivity.
Qed.

Lemma execute_total rcf st : wf st -> cbs_ok st ->
  exists st' lg r, tdma_sched_execute rcf st = XOk st' lg r /\ (st' = st \/ st' = set_bucket st (s_cur st) []).
Proof.
  intros Hwf Hcb. rewrite execute_run by exact Hwf.
  pose proof (run_items_no_null rcf _ (exec_order_cbs st Hwf Hcb)) as Hn.
  destruct (run_items rcf (exec_order (bucket_due st 0))) as [lg [| rc |]]; [eauto 6|eauto 6|contradiction].
Qed.

Lemma execute_sorted_perm rcf st : wf st -> cbs_ok st -> (forall x, 0 <= rcf x) ->
  exists st' lg, tdma_sched_execute rcf st = XOk st' lg (Z.of_nat (length lg)) /\
    Permutation lg (bucket_due st 0) /\ ascending lg /\
    bucket_due st' 0 = [] /\ s_cur st' = s_cur st /\ (forall d, 0 < d < 25 -> bucket_due st' d = bucket_due st d).
Proof.
  intros Hwf Hcb Hr. pose proof (due_len st 0 Hwf) as Hlen.
  rewrite execute_spec by assumption. eexists _, _.
  split; [rewrite <- (Permutation_length (exec_order_perm _ Hlen)); reflexivity|]. split; [apply exec_order_perm, Hlen|]. split; [apply exec_order_sorted, Hlen|].
  split; [apply (bucket_due_clear st 0 Hwf); lia|]. split; [reflexivity|].
  intros d Hd. rewrite bucket_due_clear by (assumption || lia). replace (d =? 0) with false by lia. reflexivity.
Qed.

Ltac Zify.zify_post_hook ::= idtac.
