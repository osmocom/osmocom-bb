(* C06 - the driver glue: everything goes through [drv_loop_future], n bounded pulls store [firstn n (pending t)] *)
From Coq Require Import ZArith List Bool Lia Arith.
From OBB Require Import Gen.SercommConst Model.Sercomm Model.SercommDrv Proofs.SercommP Proofs.SercommTxP.
Import ListNotations.
Open Scope Z_scope.

Lemma drv_buf_val : c_drv_write_buffer = 256 /\ DRV_BUF = 256%nat.
Proof. split; reflexivity. Qed.

Lemma pending_future t : pending t = future t.
Proof. reflexivity. Qed.

Lemma drv_pending t n : tx_ok t ->
  snd (tx_run t (repeat Pull n)) = firstn n (pending t) /\
  pending (fst (tx_run t (repeat Pull n))) = skipn n (pending t) /\
  (pending t = [] <-> pull t = (PNone, t)).
Proof.
  intros Hok. destruct (pulls_future n t Hok) as (H1 & H2 & _).
  split; [exact H1|]. split; [exact H2|]. split; [apply future_nil_pull, Hok|apply pull_none_future, Hok].
Qed.

Lemma drv_loop_future n : forall t, tx_ok t ->
  exists t', drv_loop n t = (t', firstn n (pending t), if (length (pending t) <? n)%nat then DEnd else DMore) /\
             tx_run t (repeat Pull (length (firstn n (pending t)))) = (t', firstn n (pending t)) /\
             pending t' = skipn n (pending t) /\ tx_ok t'.
Proof.
  change pending with future.
  induction n as [|n IH]; intros t Hok.
  - exists t. cbn [drv_loop firstn skipn]. repeat split; assumption.
  - cbn [drv_loop]. pose proof (pull_future t Hok) as Hp. destruct (future t) as [|c f] eqn:Ef.
    + rewrite Hp. exists t. cbn [firstn skipn length]. rewrite Ef. repeat split; assumption.
    + destruct Hp as (t1 & E & <- & Hok1). rewrite E. destruct (IH t1 Hok1) as (t2 & E2 & R2 & Hf2 & Hok2).
      rewrite E2. exists t2. cbn [firstn skipn length repeat]. rewrite tx_run_cons. cbn [tx_step]. rewrite E.
      cbn [fst snd]. rewrite R2. repeat split; assumption.
Qed.

Lemma drv_chunk t : tx_ok t ->
  exists t' o r, drv_write_chunk t = (t', o, r) /\
    o = firstn DRV_BUF (pending t) /\ pending t' = skipn DRV_BUF (pending t) /\
    tx_run t (repeat Pull (length o)) = (t', o) /\ (length o <= DRV_BUF)%nat /\
    ((r = DMore /\ length o = DRV_BUF /\ (DRV_BUF <= length (pending t))%nat) \/
     (r = DEnd /\ (length o < DRV_BUF)%nat /\ o = pending t /\ pull t' = (PNone, t'))).
Proof.
  intros Hok. destruct (drv_loop_future DRV_BUF t Hok) as (t' & E & R & Hf & Hok'). change pending with future in *.
  eexists t', _, _. split; [exact E|]. split; [reflexivity|]. split; [exact Hf|]. split; [exact R|].
  split; [apply firstn_le_length|]. destruct (Nat.ltb_spec (length (future t)) DRV_BUF) as [Hlt|Hge].
  - right. rewrite firstn_all2 by lia. split; [reflexivity|]. split; [exact Hlt|]. split; [reflexivity|].
    apply future_nil_pull; [exact Hok'|]. rewrite Hf. apply skipn_all2. lia.
  - left. split; [reflexivity|]. split; [apply firstn_length_le, Hge|exact Hge].
Qed.

Lemma drv_drain fuel : forall t, tx_ok t -> (length (pending t) < fuel * DRV_BUF)%nat ->
  exists t' calls, drain fuel t = (t', calls) /\
    written calls = pending t /\
    (forall n, (length (pending t) <= n)%nat -> written calls = snd (tx_run t (repeat Pull n))) /\
    Forall (fun c => (length (fst c) <= DRV_BUF)%nat) calls /\
    map snd calls = repeat DMore (length calls - 1) ++ [DEnd] /\
    Forall (fun c => snd c = DMore -> length (fst c) = DRV_BUF) calls /\
    length calls = (length (pending t) / DRV_BUF + 1)%nat /\
    pending t' = [] /\ pull t' = (PNone, t').
Proof.
  assert (HB : (DRV_BUF <> 0)%nat) by (rewrite (proj2 drv_buf_val); discriminate).
  induction fuel as [|f IH]; intros t Hok Hlen; [cbn in Hlen; lia|].
  cbn [drain]. destruct (drv_chunk t Hok) as (t1 & o & r & E & Ho & Hp & R & Hle & Hcase). rewrite E.
  assert (Hok1 : tx_ok t1).
  { destruct (pulls_future (length o) t Hok) as (_ & _ & K). rewrite R in K. exact K. }
  destruct Hcase as [(-> & Hfull & Hge)|(-> & Hlt & Hall & Hnone)].
  - destruct (IH t1 Hok1) as (t2 & cs & Ed & Hw & _ & Hles & Hfl & Hex & Hn & Hfin);
      [rewrite Hp, skipn_length; cbn [Nat.mul] in Hlen; lia|].
    rewrite Ed. exists t2, ((o, DMore) :: cs).
    assert (Hcat : written ((o, DMore) :: cs) = pending t).
    { unfold written in *. cbn [map fst concat]. rewrite Hw, Ho, Hp. apply firstn_skipn. }
    split; [reflexivity|]. split; [exact Hcat|].
    split; [intros n Hn'; rewrite Hcat; symmetry; exact (pulls_all n t Hok Hn')|].
    split; [constructor; [exact Hle|exact Hles]|].
    split.
    { cbn [map snd length]. rewrite Hfl. replace (S (length cs) - 1)%nat with (S (length cs - 1)) by lia.
      reflexivity. }
    split; [constructor; [intros _; exact Hfull|exact Hex]|].
    split; [|exact Hfin].
    cbn [length]. rewrite Hn, Hp, skipn_length.
    replace (length (pending t)) with (1 * DRV_BUF + (length (pending t) - DRV_BUF))%nat at 2 by lia.
    rewrite Nat.div_add_l by exact HB. lia.
  - exists t1, [(o, DEnd)]. rewrite Hall in Hlt. unfold written. cbn [map fst snd concat length].
    rewrite app_nil_r, Nat.div_small by exact Hlt.
    split; [reflexivity|]. split; [exact Hall|].
    split; [intros n Hn; rewrite Hall; symmetry; exact (pulls_all n t Hok Hn)|].
    split; [constructor; [exact Hle|constructor]|].
    split; [reflexivity|]. split; [constructor; [discriminate|constructor]|].
    split; [reflexivity|]. split; [rewrite Hp; apply skipn_all2; lia|exact Hnone].
Qed.

Lemma drv_end_to_end_batch cap sd fuel : 0 < cap -> Forall (valid_msg cap) sd ->
  (length (concat (map frame' (sorted_by_dlci sd))) < fuel * DRV_BUF)%nat ->
  exists t' calls, drain fuel (fst (tx_run tx0 (map send_of sd))) = (t', calls) /\
    written calls = concat (map frame' (sorted_by_dlci sd)) /\
    snd (rx_run cap rx0 (written calls)) = map rmsg (sorted_by_dlci sd) /\
    Forall (fun c => (length (fst c) <= DRV_BUF)%nat) calls /\
    map snd calls = repeat DMore (length calls - 1) ++ [DEnd] /\
    length calls = (length (concat (map frame' (sorted_by_dlci sd))) / DRV_BUF + 1)%nat /\
    pull t' = (PNone, t').
Proof.
  intros Hc Hv Hlen. rewrite <- batch_future, <- pending_future in *.
  destruct (drv_drain fuel _ (tx_ok_reach (map send_of sd)) Hlen) as (t' & calls & E & Hw & _ & Hle & Hfl & _ & Hn & _ & Hpn).
  exists t', calls. split; [exact E|]. split; [exact Hw|]. split; [|auto].
  rewrite Hw, pending_future, batch_future. apply rx_sorted; assumption.
Qed.

(* non-vacuity: one 400-octet message = a pending run of 404 framed octets, more than one buffer *)
Example s_drv_example :
  let t := fst (tx_run tx0 [Send 5 (repeat 65 400)]) in
  length (pending t) = 404%nat /\
  (let '(_, calls) := drain 2 t in
   map (fun c => (length (fst c), snd c)) calls = [(256%nat, DMore); (148%nat, DEnd)] /\
   written calls = frame 5 (repeat 65 400) /\
   snd (rx_run 2048 rx0 (written calls)) = [RMsg 5 (repeat 65 400)]) /\
  (* two messages back to back on different DLCIs, 258 + 5 framed octets: the 257th octet is the first of the second call *)
  (let '(_, calls) := drain 2 (fst (tx_run tx0 [Send 9 [1]; Send 4 (repeat 66 254)])) in
   map (fun c => (length (fst c), snd c)) calls = [(256%nat, DMore); (7%nat, DEnd)] /\
   snd (rx_run 2048 rx0 (written calls)) = [RMsg 4 (repeat 66 254); RMsg 9 [1]]).
Proof. vm_compute. repeat split. Qed.
