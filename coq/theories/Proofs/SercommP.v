(* C06 - receive side of sercomm: transparency, streams, over-long frames, memory safety.
   Between frames the receiver is idle or skewed by one flag ([st_of]), buffer empty; the stream results compose
   what one item (noise, a frame of any length) does to such a state. *)
From Coq Require Import ZArith List Bool Lia ZifyBool.
From OBB Require Import Gen.SercommConst Model.Sercomm.
Import ListNotations.
Open Scope Z_scope.

Lemma flag_val : FLAG = 126. Proof. reflexivity. Qed.
Lemma esc_val : ESC = 125. Proof. reflexivity. Qed.
Lemma cui_val : C_UI = 3. Proof. reflexivity. Qed.
Lemma headroom_val : HEADROOM = 4. Proof. reflexivity. Qed.
Lemma host_cap_val : HOST_CAP = 2048. Proof. reflexivity. Qed.

Lemma constants :
  c_HDLC_FLAG = 126 /\ c_HDLC_ESCAPE = 125 /\ c_HDLC_C_UI = 3 /\ c_SC_DLCI_MAX = 129 /\ c_SC_DLCI_ECHO = 128 /\
  c_n_tx_queues = 129 /\ c_n_rx_handlers = 129 /\
  c_SERCOMM_RX_MSG_SIZE = 2048 /\ c_rx_tailroom = 2048 /\ c_rx_headroom = 4 /\ c_SERCOMM_RX_MSG_SIZE_target = 256 /\
  c_named_dlcis = [0; 4; 5; 9; 10; 128].
Proof. repeat split; reflexivity. Qed.

Lemma needs_esc_spec b : needs_esc b = false <-> b <> FLAG /\ b <> ESC /\ b <> 0.
Proof. unfold needs_esc. lia. Qed.

Lemma flip5_invol b : flip5 (flip5 b) = b.
Proof. unfold flip5. rewrite Z.lxor_assoc, Z.lxor_nilpotent, Z.lxor_0_r. reflexivity. Qed.

Lemma flip5_values b : needs_esc b = true -> flip5 b = 94 \/ flip5 b = 93 \/ flip5 b = 32.
Proof.
  unfold needs_esc. rewrite flag_val, esc_val. intros H.
  assert (b = 126 \/ b = 125 \/ b = 0) as [-> | [-> | ->]] by lia; vm_compute; auto.
Qed.

Lemma escape_app l1 l2 : escape (l1 ++ l2) = escape l1 ++ escape l2.
Proof.
  induction l1 as [|b l1 IH]; [reflexivity|]. cbn [app escape]. rewrite IH.
  destruct (needs_esc b); reflexivity.
Qed.

Fixpoint esc_followed (l : list Z) : Prop :=
  match l with
  | [] => True
  | b :: r => (b = ESC -> match r with c :: _ => c = 94 \/ c = 93 \/ c = 32 | [] => False end) /\ esc_followed r
  end.

Lemma escape_clean l : Forall (fun b => b <> FLAG /\ b <> 0) (escape l) /\ esc_followed (escape l).
Proof.
  induction l as [|b l [IH1 IH2]]; cbn [escape]; [split; [constructor|exact I]|].
  destruct (needs_esc b) eqn:E; cbn [esc_followed].
  - apply flip5_values in E. rewrite flag_val, esc_val in *. repeat (constructor; try lia); assumption.
  - apply needs_esc_spec in E. repeat (constructor; try lia); assumption.
Qed.

Lemma len_nil : len [] = 0. Proof. reflexivity. Qed.
Lemma len_cons b (p : list Z) : len (b :: p) = 1 + len p.
Proof. unfold len. cbn [length]. lia. Qed.
Lemma len_nonneg (p : list Z) : 0 <= len p. Proof. unfold len. lia. Qed.

Lemma len_split (q : list Z) k : 0 <= k < len q -> exists q1 b q2, q = q1 ++ b :: q2 /\ len q1 = k.
Proof.
  unfold len. intros H. exists (firstn (Z.to_nat k) q). destruct (skipn (Z.to_nat k) q) as [|b q2] eqn:E.
  - apply (f_equal (@length Z)) in E. rewrite skipn_length in E. cbn [length] in E. lia.
  - exists b, q2. rewrite <- E, firstn_skipn, firstn_length. split; [reflexivity|lia].
Qed.

Definition mk s d c b n : rx := {| st := s; dlci := d; ctrl := c; buf := b; blen := n |}.

(* one step from a state written with [mk]; the buffer-full test comes first in every state *)
Ltac rx_step :=
  unfold rx_char, put, tailroom, mk; cbn [st dlci ctrl buf blen].

Lemma not_full cap n : n <> cap -> (cap - n =? 0) = false.
Proof. lia. Qed.

Lemma step_full cap s d c acc ch : rx_char cap (mk s d c acc cap) ch = (mk WAIT d c [] 0, ROverflow).
Proof. rx_step. rewrite Z.sub_diag. reflexivity. Qed.

Lemma step_wait_flag cap d c acc n : n <> cap ->
  rx_char cap (mk WAIT d c acc n) FLAG = (mk ADDR d c acc n, RNone).
Proof. intros H. rx_step. rewrite not_full, Z.eqb_refl by exact H. reflexivity. Qed.

Lemma step_wait_other cap d c acc n ch : n <> cap -> ch <> FLAG ->
  rx_char cap (mk WAIT d c acc n) ch = (mk WAIT d c acc n, RNone).
Proof. intros H Hf. rx_step. rewrite not_full by exact H. replace (ch =? FLAG) with false by lia. reflexivity. Qed.

Lemma step_addr cap d c acc n ch : n <> cap ->
  rx_char cap (mk ADDR d c acc n) ch = (mk CTRL ch c acc n, RNone).
Proof. intros H. rx_step. rewrite not_full by exact H. reflexivity. Qed.

Lemma step_ctrl cap d c acc n ch : n <> cap ->
  rx_char cap (mk CTRL d c acc n) ch = (mk DATA d ch acc n, RNone).
Proof. intros H. rx_step. rewrite not_full by exact H. reflexivity. Qed.

Lemma step_plain cap d c acc n ch : n < cap -> ch <> ESC -> ch <> FLAG ->
  rx_char cap (mk DATA d c acc n) ch = (mk DATA d c (ch :: acc) (n + 1), RNone).
Proof.
  intros H He Hf. rx_step. rewrite not_full by lia.
  replace (ch =? ESC) with false by lia. replace (ch =? FLAG) with false by lia.
  replace (cap - n <? 1) with false by lia. reflexivity.
Qed.

Lemma step_esc cap d c acc n : n < cap ->
  rx_char cap (mk DATA d c acc n) ESC = (mk ESCAPE d c acc n, RNone).
Proof. intros H. rx_step. rewrite not_full, Z.eqb_refl by lia. reflexivity. Qed.

Lemma step_escaped cap d c acc n ch : n < cap ->
  rx_char cap (mk ESCAPE d c acc n) ch = (mk DATA d c (flip5 ch :: acc) (n + 1), RNone).
Proof. intros H. rx_step. rewrite not_full by lia. replace (cap - n <? 1) with false by lia. reflexivity. Qed.

Lemma step_flag cap d c acc n : n < cap ->
  rx_char cap (mk DATA d c acc n) FLAG = (mk WAIT d c [] 0, RMsg d (rev acc)).
Proof. intros H. rx_step. rewrite not_full, Z.eqb_refl by lia. reflexivity. Qed.

Lemma rx_run_app cap l1 : forall s l2, rx_run cap s (l1 ++ l2) =
  let '(s1, o1) := rx_run cap s l1 in let '(s2, o2) := rx_run cap s1 l2 in (s2, o1 ++ o2).
Proof.
  induction l1 as [|a l1 IH]; intros s l2; cbn [app rx_run].
  - destruct (rx_run cap s l2); reflexivity.
  - destruct (rx_char cap s a) as [s' o]. rewrite IH. destruct (rx_run cap s' l1) as [s1 o1].
    destruct (rx_run cap s1 l2) as [s2 o2]. destruct o; reflexivity.
Qed.

Lemma rx_run_app_snd cap s l1 l2 :
  snd (rx_run cap s (l1 ++ l2)) = snd (rx_run cap s l1) ++ snd (rx_run cap (fst (rx_run cap s l1)) l2).
Proof.
  rewrite rx_run_app. destruct (rx_run cap s l1) as [s1 o1]. cbn [fst]. destruct (rx_run cap s1 l2). reflexivity.
Qed.

Lemma wait_noise cap d c l : 0 < cap -> Forall (fun b => b <> FLAG) l ->
  rx_run cap (mk WAIT d c [] 0) l = (mk WAIT d c [] 0, []).
Proof.
  intros Hc H. induction H as [|b l Hb Hl IH]; [reflexivity|].
  cbn [rx_run]. rewrite step_wait_other by (auto; lia). rewrite IH. reflexivity.
Qed.

Lemma rx_data_phase cap p : forall d c acc n, n + len p <= cap ->
  rx_run cap (mk DATA d c acc n) (escape p) = (mk DATA d c (rev p ++ acc) (n + len p), []).
Proof.
  induction p as [|b p IH]; intros d c acc n Hlen; cbn [escape rev].
  - rewrite len_nil, Z.add_0_r. reflexivity.
  - rewrite len_cons in *. pose proof (len_nonneg p). rewrite <- app_assoc, Z.add_assoc. cbn [app].
    destruct (needs_esc b) eqn:Hn; cbn [rx_run].
    + rewrite step_esc, step_escaped, flip5_invol, IH by lia. reflexivity.
    + apply needs_esc_spec in Hn. rewrite step_plain, IH by lia. reflexivity.
Qed.

(* the receiver between frames: idle, or skewed by one flag (it took a closing flag for an opening one) *)
Definition st_of (skew : bool) : rxst := if skew then ADDR else WAIT.

Lemma rx_body_ok cap d c q : len q < cap ->
  rx_run cap (mk DATA d c [] 0) (escape q ++ [FLAG]) = (mk WAIT d c [] 0, [RMsg d q]).
Proof.
  intros H. rewrite rx_run_app, rx_data_phase by lia. cbn [rx_run]. rewrite step_flag by lia.
  rewrite app_nil_r, rev_involutive. reflexivity.
Qed.

(* exactly cap octets: the closing flag finds the buffer full.  More: octet cap + 1 does, the rest is skipped
   as noise and the closing flag taken for an opening one. *)
Lemma rx_body cap d c q : 0 < cap ->
  rx_run cap (mk DATA d c [] 0) (escape q ++ [FLAG]) =
    (mk (st_of (cap <? len q)) d c [] 0, [if len q <? cap then RMsg d q else ROverflow]).
Proof.
  intros Hc. destruct (Z.ltb_spec (len q) cap) as [H|H], (Z.ltb_spec cap (len q)) as [H'|H']; try lia; cbn [st_of].
  - apply rx_body_ok, H.
  - destruct (len_split q cap) as (q1 & b & q2 & -> & H1); [lia|].
    rewrite escape_app, <- app_assoc, rx_run_app, rx_data_phase by lia.
    pose proof (proj1 (escape_clean (b :: q2))) as Hcl. destruct (escape (b :: q2)) as [|x rest] eqn:Ex.
    { cbn [escape] in Ex. destruct (needs_esc b); discriminate. }
    rewrite Z.add_0_l, H1. cbn [app rx_run]. rewrite step_full, rx_run_app, wait_noise.
    + cbn [rx_run]. rewrite step_wait_flag by lia. reflexivity.
    + exact Hc.
    + apply Forall_inv_tail in Hcl. eapply Forall_impl; [|exact Hcl]. intros a Ha. apply Ha.
  - rewrite rx_run_app, rx_data_phase by lia. cbn [rx_run].
    replace (0 + len q) with cap by lia. rewrite step_full. reflexivity.
Qed.

Lemma rx_hdr_skew cap d0 c0 a c l : 0 < cap ->
  rx_run cap (mk ADDR d0 c0 [] 0) (a :: c :: l) = rx_run cap (mk DATA a c [] 0) l.
Proof.
  intros Hc. cbn [rx_run]. rewrite step_addr, step_ctrl by lia. destruct (rx_run cap (mk DATA a c [] 0) l). reflexivity.
Qed.

Lemma rx_hdr_idle cap d0 c0 a c l : 0 < cap ->
  rx_run cap (mk WAIT d0 c0 [] 0) (FLAG :: a :: c :: l) = rx_run cap (mk DATA a c [] 0) l.
Proof.
  intros Hc. cbn [rx_run]. rewrite step_wait_flag, step_addr, step_ctrl by lia.
  destruct (rx_run cap (mk DATA a c [] 0) l). reflexivity.
Qed.

Lemma frame_unfold d p : needs_esc d = false -> frame d p = FLAG :: d :: C_UI :: escape p ++ [FLAG].
Proof. intros H. unfold frame, frame_of, hdr. cbn [escape]. rewrite H. reflexivity. Qed.

Lemma frame_unfold_esc d p : needs_esc d = true ->
  frame d p = FLAG :: ESC :: flip5 d :: escape (C_UI :: p) ++ [FLAG].
Proof. intros H. unfold frame, frame_of, hdr. cbn [escape]. rewrite H. reflexivity. Qed.

Lemma rx_frame cap d0 c0 d p : needs_esc d = false -> len p < cap ->
  rx_run cap (mk WAIT d0 c0 [] 0) (frame d p) = (mk WAIT d C_UI [] 0, [RMsg d p]).
Proof.
  intros Hd Hl. pose proof (len_nonneg p). rewrite frame_unfold, rx_hdr_idle by (assumption || lia).
  apply rx_body_ok, Hl.
Qed.

Definition not_flag_dlci (x : Z * list Z) : bool := negb (fst x =? FLAG).

(* one frame in either state, in the terms of [wf_stream] and [expect] *)
Lemma rx_frame_any cap skew d0 c0 d p : 0 < cap -> needs_esc d = false ->
  exists d1 c1 ev,
    rx_run cap (mk (st_of skew) d0 c0 [] 0) (frame d p) =
      (mk (st_of (if len p <? cap then false else skew || (cap <? len p))) d1 c1 [] 0, [ev]) /\
    ev <> RAbort /\
    filter not_flag_dlci (msgs [ev]) = if len p <? cap then if skew then [] else [(d, p)] else [].
Proof.
  intros Hc Hd. rewrite frame_unfold by exact Hd. destruct skew; cbn [st_of orb].
  - (* skewed: the flag is taken as address, the address as control octet, the control octet as payload;
       whatever comes of it goes to DLCI 0x7E *)
    rewrite rx_hdr_skew by exact Hc. change (C_UI :: escape p ++ [FLAG]) with (escape (C_UI :: p) ++ [FLAG]).
    rewrite rx_body, len_cons by exact Hc. eexists FLAG, d, _. split; [|split].
    + replace (cap <? 1 + len p) with (negb (len p <? cap)) by lia. destruct (len p <? cap); reflexivity.
    + destruct (1 + len p <? cap); discriminate.
    + destruct (1 + len p <? cap), (len p <? cap); reflexivity.
  - rewrite rx_hdr_idle, rx_body by exact Hc. destruct (len p <? cap) eqn:E; eexists d, C_UI, _.
    + replace (cap <? len p) with false by lia. split; [reflexivity|]. split; [discriminate|].
      cbn [msgs filter]. unfold not_flag_dlci. cbn [fst]. apply needs_esc_spec in Hd.
      replace (d =? FLAG) with false by lia. reflexivity.
    + split; [reflexivity|]. split; [discriminate|reflexivity].
Qed.

Lemma render_cons i its : render (i :: its) = render1 i ++ render its.
Proof. reflexivity. Qed.

Lemma msgs_app a b : msgs (a ++ b) = msgs a ++ msgs b.
Proof. induction a as [|x a IH]; [reflexivity|]. destruct x; cbn [app msgs]; rewrite IH; reflexivity. Qed.

Lemma rx_stream cap : 0 < cap -> forall its d0 c0, good_stream cap its ->
  exists d1 c1, rx_run cap (mk WAIT d0 c0 [] 0) (render its) = (mk WAIT d1 c1 [] 0, map rmsg (frames_of its)).
Proof.
  intros Hc. induction its as [|i its IH]; intros d0 c0 Hg.
  - exists d0, c0. reflexivity.
  - destruct i as [n|d p]; cbn [good_stream] in Hg.
    + destruct Hg as [Hn Hg]. destruct (IH d0 c0 Hg) as (d1 & c1 & E). exists d1, c1.
      rewrite render_cons. cbn [render1 frames_of]. rewrite rx_run_app, wait_noise by assumption. rewrite E. reflexivity.
    + destruct Hg as (Hd & Hl & Hg). destruct (IH d C_UI Hg) as (d1 & c1 & E). exists d1, c1.
      rewrite render_cons. cbn [render1 frames_of map]. rewrite rx_run_app, rx_frame by assumption. rewrite E. reflexivity.
Qed.

Lemma good_frames cap l : Forall (valid_msg cap) l -> good_stream cap (map (fun x => Frame (fst x) (snd x)) l).
Proof. induction 1 as [|x l (H1 & H2 & H3) _ IH]; [exact I|]. cbn [map good_stream]. auto. Qed.

Lemma frames_of_frames l : frames_of (map (fun x => Frame (fst x) (snd x)) l) = l.
Proof. induction l as [|[d p] l IH]; [reflexivity|]. cbn [map frames_of fst snd]. rewrite IH. reflexivity. Qed.

Lemma rx_frames cap l : 0 < cap -> Forall (valid_msg cap) l ->
  snd (rx_run cap rx0 (concat (map frame' l))) = map rmsg l.
Proof.
  intros Hc Hl. destruct (rx_stream cap Hc _ 0 0 (good_frames cap l Hl)) as (d1 & c1 & E).
  unfold render in E. rewrite map_map, frames_of_frames in E. change (mk WAIT 0 0 [] 0) with rx0 in E.
  cbn [render1] in E. fold frame' in E. rewrite E. reflexivity.
Qed.

Lemma rx_sorted cap sd : 0 < cap -> Forall (valid_msg cap) sd ->
  snd (rx_run cap rx0 (concat (map frame' (sorted_by_dlci sd)))) = map rmsg (sorted_by_dlci sd).
Proof.
  intros Hc Hv. apply rx_frames; [exact Hc|].
  rewrite Forall_forall in *. intros x Hx. apply Hv. unfold sorted_by_dlci in Hx.
  apply in_flat_map in Hx as (i & _ & Hx). apply filter_In in Hx. tauto.
Qed.

(* frames of ANY length: one longer than the buffer leaves the receiver skewed, which costs the next in-size
   frame (junk on DLCI 0x7E at most) and nothing else, provided no noise follows it directly (wf_stream) *)
Lemma rx_items cap : 0 < cap -> forall its skew d0 c0, wf_stream cap skew its ->
  exists d1 c1 skew' evs,
    rx_run cap (mk (st_of skew) d0 c0 [] 0) (render its) = (mk (st_of skew') d1 c1 [] 0, evs) /\
    filter not_flag_dlci (msgs evs) = expect cap skew its /\ ~ In RAbort evs.
Proof.
  intros Hc. induction its as [|[n|d p] its IH]; intros skew d0 c0 Hw; cbn [wf_stream] in Hw.
  - exists d0, c0, skew, []. cbn. auto.
  - destruct Hw as (Hn & Hs & Hw). destruct (IH skew d0 c0 Hw) as (d1 & c1 & sk & evs & E & H).
    exists d1, c1, sk, evs. split; [|exact H]. rewrite render_cons, rx_run_app. cbn [render1].
    assert (N : rx_run cap (mk (st_of skew) d0 c0 [] 0) n = (mk (st_of skew) d0 c0 [] 0, [])).
    { destruct skew; [rewrite (Hs eq_refl); reflexivity|apply wait_noise; assumption]. }
    rewrite N, E. reflexivity.
  - destruct Hw as (Hd & Hw). destruct (rx_frame_any cap skew d0 c0 d p Hc Hd) as (d1 & c1 & ev & E1 & Hev & Hf1).
    destruct (IH _ d1 c1 Hw) as (d2 & c2 & sk & evs & E & Hf & Ha).
    exists d2, c2, sk, (ev :: evs). rewrite render_cons, rx_run_app. cbn [render1]. rewrite E1, E.
    split; [reflexivity|]. split.
    + change (ev :: evs) with ([ev] ++ evs). rewrite msgs_app, filter_app, Hf1, Hf. cbn [expect].
      destruct (len p <? cap), skew; reflexivity.
    + intros [H|H]; [exact (Hev H)|exact (Ha H)].
Qed.

Definition rx_inv (cap : Z) (s : rx) : Prop := 0 <= blen s <= cap /\ blen s = len (buf s).

(* in every branch the stored length becomes 0, stays, or grows by one below cap; only the closing flag in DATA
   dispatches, and it dispatches the stored octets *)
Lemma rx_char_inv cap s ch : rx_inv cap s ->
  rx_inv cap (fst (rx_char cap s ch)) /\ snd (rx_char cap s ch) <> RAbort /\
  (forall d p, snd (rx_char cap s ch) = RMsg d p -> len p < cap).
Proof.
  intros [Hb Hl]. destruct s as [s d c b n]. cbn [blen buf] in Hb, Hl. unfold rx_inv. rx_step.
  destruct (cap - n =? 0) eqn:E0.
  2: destruct s; [destruct (ch =? FLAG)| | |destruct (ch =? ESC); [|destruct (ch =? FLAG)]|].
  all: try (destruct (cap - n <? 1) eqn:E1; [lia|]).
  all: cbn [fst snd blen buf]; rewrite ?len_nil, ?len_cons.
  all: split; [lia|]; split; [discriminate|]; intros d' p' H; inversion H.
  - (* DATA, closing flag *) unfold len in *. rewrite rev_length. lia.
Qed.

Lemma rx_run_inv cap l : forall s, rx_inv cap s ->
  0 <= blen (fst (rx_run cap s l)) <= cap /\
  blen (fst (rx_run cap s l)) = len (buf (fst (rx_run cap s l))) /\
  ~ In RAbort (snd (rx_run cap s l)) /\
  (forall d p, In (d, p) (msgs (snd (rx_run cap s l))) -> len p < cap).
Proof.
  induction l as [|ch l IH]; intros s Hs.
  - destruct Hs. cbn [rx_run fst snd msgs In]. tauto.
  - cbn [rx_run]. destruct (rx_char_inv cap s ch Hs) as (H1 & H2 & H3).
    destruct (rx_char cap s ch) as [s1 o]. cbn [fst snd] in *.
    destruct (IH s1 H1) as (I0 & I1 & I2 & I3). destruct (rx_run cap s1 l) as [s2 os]. cbn [fst snd] in *.
    split; [exact I0|]. split; [exact I1|]. split.
    + destruct o; try exact I2; intros [H|H]; try discriminate; auto.
    + intros d p Hin. destruct o; cbn [msgs] in Hin; try (apply (I3 d p); exact Hin).
      cbn [In] in Hin. destruct Hin as [Hin|Hin]; [inversion Hin; subst; apply (H3 d p); reflexivity|apply (I3 d p); exact Hin].
Qed.

Lemma rx0_inv cap : 0 <= cap -> rx_inv cap rx0.
Proof. intros H. unfold rx_inv, rx0. cbn [blen buf]. rewrite len_nil. lia. Qed.

(* defect of the source: Tx escapes the address octet (DLCI 0 = SC_DLCI_HIGHEST is such), Rx takes it raw *)
Lemma rx_frame_escaped cap d p : needs_esc d = true -> 1 + len p < cap ->
  rx_run cap rx0 (frame d p) = (mk WAIT ESC (flip5 d) [] 0, [RMsg ESC (C_UI :: p)]).
Proof.
  intros Hd H. pose proof (len_nonneg p).
  change rx0 with (mk WAIT 0 0 [] 0). rewrite frame_unfold_esc, rx_hdr_idle by (assumption || lia). apply rx_body_ok. rewrite len_cons. exact H.
Qed.

(* defect of the source: noise directly after an over-long frame is taken for a header, and TWO following frames
   are lost (capacity 4 here; SercommS has the witness at 2048) *)
Definition noise_witness : list item :=
  [Frame 5 [65; 65; 65; 65; 65]; Noise [9; 1; 2]; Frame 5 [1]; Frame 5 [2]; Frame 5 [3]].

Lemma noise_after_overlong_refuted :
  Forall (fun b => b <> FLAG) [9; 1; 2] /\ needs_esc 5 = false /\
  msgs (snd (rx_run 4 rx0 (render noise_witness))) = [(9, [2]); (126, [3; 2]); (5, [3])].
Proof. split; [repeat constructor; discriminate|]. split; reflexivity. Qed.

Example stream_example :
  good_stream 2048 [Noise [1; 125; 0]; Frame 5 [126; 125; 0; 94; 93; 32]; Noise []; Frame 10 []; Frame 128 [0]] /\
  msgs (snd (rx_run 2048 rx0 (render [Noise [1; 125; 0]; Frame 5 [126; 125; 0; 94; 93; 32]; Noise []; Frame 10 []; Frame 128 [0]])))
  = [(5, [126; 125; 0; 94; 93; 32]); (10, []); (128, [0])].
Proof.
  split; [|vm_compute; reflexivity].
  cbn [good_stream]. repeat split; try reflexivity; try (repeat constructor; discriminate).
Qed.

Example overlong_example :
  wf_stream 4 false [Frame 5 [1]; Frame 9 [1; 2; 3; 4; 5; 6]; Frame 5 [2]; Noise [7]; Frame 5 [3]; Frame 5 [1; 2; 3; 4]; Noise [8]; Frame 5 [4]] /\
  expect 4 false [Frame 5 [1]; Frame 9 [1; 2; 3; 4; 5; 6]; Frame 5 [2]; Noise [7]; Frame 5 [3]; Frame 5 [1; 2; 3; 4]; Noise [8]; Frame 5 [4]]
  = [(5, [1]); (5, [3]); (5, [4])] /\
  msgs (snd (rx_run 4 rx0 (render [Frame 5 [1]; Frame 9 [1; 2; 3; 4; 5; 6]; Frame 5 [2]; Noise [7]; Frame 5 [3]; Frame 5 [1; 2; 3; 4]; Noise [8]; Frame 5 [4]])))
  = [(5, [1]); (126, [3; 2]); (5, [3]); (5, [4])].
Proof.
  split; [|split; vm_compute; reflexivity].
  cbn. repeat split; try reflexivity; try (repeat constructor; discriminate); discriminate.
Qed.

Lemma msgs_rmsg l : msgs (map rmsg l) = l.
Proof. induction l as [|[d p] l IH]; [reflexivity|]. cbn [map rmsg msgs fst snd]. rewrite IH. reflexivity. Qed.

Lemma registered_in reg d : d < HANDLER_MAX -> In d reg -> registered reg d = true.
Proof.
  intros H1 H2. unfold registered. apply andb_true_iff. split; [lia|].
  apply existsb_exists. exists d. split; [exact H2|apply Z.eqb_refl].
Qed.

Lemma delivered_all reg l : Forall (fun x => fst x < HANDLER_MAX /\ In (fst x) reg) l -> delivered reg l = l.
Proof.
  unfold delivered. induction 1 as [|x l [H1 H2] _ IH]; [reflexivity|].
  cbn [filter]. rewrite registered_in, IH by assumption. reflexivity.
Qed.

Lemma rx_stream_delivered cap reg its : 0 < cap -> good_stream cap its ->
  Forall (fun x => fst x < HANDLER_MAX /\ In (fst x) reg) (frames_of its) ->
  delivered reg (msgs (snd (rx_run cap rx0 (render its)))) = frames_of its.
Proof.
  intros Hc Hg Hr. destruct (rx_stream cap Hc its 0 0 Hg) as (d1 & c1 & E).
  change (mk WAIT 0 0 [] 0) with rx0 in E. rewrite E. cbn [snd]. rewrite msgs_rmsg. apply delivered_all, Hr.
Qed.

Lemma good_prefix cap a : good_stream cap a -> forall b,
  (wf_stream cap false b -> wf_stream cap false (a ++ b)) /\
  expect cap false (a ++ b) = frames_of a ++ expect cap false b.
Proof.
  induction a as [|[n|d p] a IH]; cbn [good_stream app wf_stream expect frames_of]; intros Hg b.
  - auto.
  - destruct Hg as [Hn Hg]. destruct (IH Hg b). repeat split; (assumption || discriminate || auto).
  - destruct Hg as (Hd & Hl & Hg). replace (len p <? cap) with true by lia. destruct (IH Hg b) as [I1 I2].
    rewrite I2. auto.
Qed.

Lemma rx_stream_general cap its : 0 < cap -> wf_stream cap false its ->
  exists s evs, rx_run cap rx0 (render its) = (s, evs) /\ ~ In RAbort evs /\
    filter not_flag_dlci (msgs evs) = expect cap false its.
Proof.
  intros Hc Hw. destruct (rx_items cap Hc its false 0 0 Hw) as (d1 & c1 & sk & evs & E & Hf & Ha).
  exists (mk (st_of sk) d1 c1 [] 0), evs. auto.
Qed.

Lemma overlong_resync cap pre d p d1 p1 post :
  0 < cap -> good_stream cap pre -> needs_esc d = false -> cap <= len p ->
  needs_esc d1 = false -> len p1 < cap -> good_stream cap post ->
  exists s evs,
    rx_run cap rx0 (render (pre ++ Frame d p :: Frame d1 p1 :: post)) = (s, evs) /\ ~ In RAbort evs /\
    filter not_flag_dlci (msgs evs) = frames_of pre ++ (if cap <? len p then [] else [(d1, p1)]) ++ frames_of post.
Proof.
  intros Hc Hpre Hd Hp Hd1 Hp1 Hpost.
  assert (E : (len p <? cap) = false) by lia. assert (E1 : (len p1 <? cap) = true) by lia.
  destruct (good_prefix cap post Hpost []) as [Hwpost Hepost]. specialize (Hwpost I).
  cbn [expect] in Hepost. rewrite app_nil_r in Hwpost, Hepost. rewrite app_nil_r in Hepost.
  destruct (good_prefix cap pre Hpre (Frame d p :: Frame d1 p1 :: post)) as [Hw He].
  destruct (rx_stream_general cap (pre ++ Frame d p :: Frame d1 p1 :: post) Hc) as (s & evs & Hrun & Ha & Hf).
  { apply Hw. cbn [wf_stream]. rewrite E, E1. auto. }
  exists s, evs. split; [exact Hrun|]. split; [exact Ha|]. rewrite Hf, He. f_equal.
  cbn [expect orb]. rewrite E, E1. destruct (cap <? len p); rewrite Hepost; reflexivity.
Qed.
