(* C16/C17: what `fits` says about individual fields of the (decoded) message: which names can occur, and the length
   of a present buffer. *)
From Coq Require Import ZArith List.
From OBB Require Import Model.Codec Proofs.CodecBits Proofs.CodecRT.
Import ListNotations.
Open Scope Z_scope.

(* every name of the decoded dict is bound by a field of the definition that is present *)
Lemma fits_keys fs e e0 R cv u : fits fs e e0 R cv u ->
  forall k, In k (keys cv) -> exists f, In f fs /\ In k (fnames f) /\ get_pres (fpres f) e = Ok true.
Proof.
  intros H k Hin. apply Exists_exists. revert k Hin.
  induction H using fits_min with (P0 := fun _ _ _ _ => True); try (intros; exact I); intros k Hin.
  - destruct Hin.
  - apply Exists_cons_tl; auto.
  - destruct Hin as [<-|Hin]; [apply Exists_cons_hd; split; [left; reflexivity|assumption]|apply Exists_cons_tl; auto].
  - destruct Hin as [<-|Hin]; [apply Exists_cons_hd; split; [left; reflexivity|assumption]|apply Exists_cons_tl; auto].
  - apply Exists_cons_tl; auto.
  - rewrite keys_app in Hin. apply in_app_or in Hin as [Hin|Hin]; [|apply Exists_cons_tl; auto].
    apply Exists_cons_hd. split; [|assumption]. apply (bf_names_order_in lsb bfs k). eapply bits_fit_keys; eassumption.
  - destruct Hin as [<-|Hin]; [apply Exists_cons_hd; split; [left; reflexivity|assumption]|apply Exists_cons_tl; auto].
  - destruct Hin as [<-|Hin]; [apply Exists_cons_hd; split; [left; reflexivity|assumption]|apply Exists_cons_tl; auto].
Qed.

(* every member field heads a fitting suffix, from the dict extended by what the earlier fields stored *)
Lemma fits_at : forall fs e e0 R cv u, fits fs e e0 R cv u -> forall f, In f fs ->
  exists pre cv' u' fs', cv = pre ++ cv' /\ fits (f :: fs') e (e0 ++ pre) R cv' u'.
Proof.
  induction fs as [|g fs IH]; intros e e0 R cv u H f Hin; [destruct Hin|]. destruct Hin as [->|Hin].
  - exists [], cv, u, fs. rewrite app_nil_r. auto.
  - assert (Hgen : forall cvf cv0 u0, fits fs e (e0 ++ cvf) R cv0 u0 ->
      exists pre cv' u' fs', cvf ++ cv0 = pre ++ cv' /\ fits (f :: fs') e (e0 ++ pre) R cv' u').
    { intros cvf cv0 u0 Ht. destruct (IH _ _ _ _ _ Ht f Hin) as [pre [cv' [u' [fs' [-> Hf]]]]].
      exists (cvf ++ pre), cv', u', fs'. rewrite <- !app_assoc in *. auto. }
    (* each constructor hands its tail on, from e0 extended by what the field stored *)
    inversion H; subst; match goal with Ht : fits fs _ _ _ _ _ |- _ =>
      first [exact (Hgen [_] _ _ Ht)|exact (Hgen _ _ _ Ht)|rewrite <- (app_nil_r e0) in Ht; exact (Hgen [] _ _ Ht)] end.
Qed.

(* a present buffer: its value, and the length the decoder computed from the dict it had built up to that field *)
Lemma fits_buf_in fs e e0 R cv u : fits fs e e0 R cv u ->
  forall nm l p, In (FBuf nm l p) fs -> get_pres p e = Ok true ->
  exists bb pre post L, lookup nm e = Some (VBytes bb) /\ cv = pre ++ post /\ get_len l (e0 ++ pre) L = Ok (length bb).
Proof.
  intros H nm l p Hin Hp. destruct (fits_at _ _ _ _ _ _ H _ Hin) as [pre [cv' [u' [fs' [-> Hf]]]]].
  inversion Hf; subst; [cbn [fpres] in *; congruence|]. eauto 10.
Qed.

Lemma tab_len_inv k tab e L n : get_len (LTab k tab) e L = Ok n -> exists z, lookup k e = Some (VInt z) /\ assocZ z tab = Some n.
Proof.
  cbn [get_len]. unfold tab_get. destruct (lookup k e) as [[z| | |]|]; try discriminate.
  destruct (assocZ z tab) as [a|] eqn:E; [|discriminate]. intros H. injection H as <-. eauto.
Qed.

Lemma fits_fixed fs e e0 R cv u : fits fs e e0 R cv u ->
  forall l p lsb bfs k bl c, In (FBits l p lsb bfs) fs -> get_pres p e = Ok true -> In (BitF (Some k) bl (Some c)) bfs ->
  In (k, VInt c) cv.
Proof.
  intros H l p lsb bfs k bl c Hin Hp Hbf. destruct (fits_at _ _ _ _ _ _ H _ Hin) as [pre [cv' [u' [fs' [-> Hf]]]]].
  apply in_or_app. right. inversion Hf; subst; [cbn [fpres] in *; congruence|]. apply in_or_app. left.
  eapply bits_fit_fixed; [eassumption|]. destruct lsb; cbn [bits_order]; [apply -> in_rev|]; exact Hbf.
Qed.
