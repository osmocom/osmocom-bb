(* C08: nothing runs in a frame it was not scheduled for - every item found d frames ahead of the current position
   (in particular every item an execute runs, d = 0) was put there by an earlier schedule / set operation of the history whose
   offset, minus the advances since, is d (modulo the ring depth 25).  Proved on the multiset specification, where an entry
   carries its due-in value. *)
From Coq Require Import ZArith List Lia Permutation ZifyBool.
From OBB Require Import Model.TdmaSched Proofs.TdmaSchedSpec Proofs.TdmaSchedP Proofs.TdmaSchedRefP.
Import ListNotations.
Open Scope Z_scope.

(* operation o stores item it for the frame N frames ahead *)
Definition schedules (o : op) (N : Z) (it : item) : Prop :=
  match o with
  | OSched N' it' => N' = N /\ it' = it
  | OSet off set p3 => exists plan k, set_plan 0 set p3 = Some plan /\ In (k, it) plan /\ N = off + k
  | _ => False
  end.

Lemma a_schedule_in m N it e : In e (fst (a_schedule m N it)) -> In e m \/ e = (N, it).
Proof. unfold a_schedule. destruct (8 <=? _); cbn [fst]; [auto|]. intros [<-|H]; auto. Qed.

Lemma a_place_in N ret : forall plan m e, In e (fst (a_place m N plan ret)) -> In e m \/ exists k it, In (k, it) plan /\ e = (N + k, it).
Proof.
  induction plan as [|[k it] r IH]; intros m e He; cbn [a_place] in He; [left; exact He|].
  pose proof (a_schedule_in m (N + k) it) as H1. destruct (a_schedule m (N + k) it) as [m1 rc]. cbn [fst] in H1.
  assert (H2 : In e m1 -> In e m \/ exists k' it', In (k', it') ((k, it) :: r) /\ e = (N + k', it')).
  { intros Hm. destruct (H1 e Hm) as [Hm'| ->]; [left; exact Hm'|]. right. exists k, it. split; [left|]; reflexivity. }
  destruct (rc =? 0); [|exact (H2 He)].
  destruct (IH m1 e He) as [Hm|(k' & it' & Hin & ->)]; [exact (H2 Hm)|].
  right. exists k', it'. split; [right; exact Hin|reflexivity].
Qed.

(* due-in values are compared modulo 25, so nothing has to be known about the range of the old ones *)
Lemma a_step_in m o e : op_ok o -> In e (fst (a_step m o)) ->
  (exists e0, In e0 m /\ snd e = snd e0 /\ fst e mod 25 = (fst e0 - (if is_adv o then 1 else 0)) mod 25) \/
  (exists N, schedules o N (snd e) /\ fst e = N /\ 0 <= N < 25).
Proof.
  intros Hok He.
  assert (Hkeep : In e m -> exists e0, In e0 m /\ snd e = snd e0 /\ fst e mod 25 = (fst e0 - 0) mod 25).
  { intros Hm. exists e. rewrite Z.sub_0_r. auto. }
  destruct o as [off it|off set p3| | |]; cbn [a_step op_ok is_adv schedules] in *.
  - destruct Hok as (Ho & _). pose proof (a_schedule_in m off it e) as H.
    destruct (a_schedule m off it) as [m1 rc]. destruct (H He) as [Hm| ->]; [left; auto|].
    right. exists off. cbn [fst snd]. auto.
  - destruct Hok as (H0 & Hb & plan & Hp). unfold a_set in He. rewrite Hp in He.
    pose proof (a_place_in off (set_nframes set) plan m e) as H.
    destruct (a_place m off plan (set_nframes set)) as [m1 rc]. destruct (H He) as [Hm|(k & it & Hin & ->)]; [left; auto|].
    right. exists (off + k). cbn [fst snd]. split; [exists plan, k; auto|]. split; [reflexivity|].
    pose proof (plan_ok_of_set off set p3 plan H0 Hb Hp) as HF. rewrite Forall_forall in HF. exact (proj1 (HF _ Hin)).
  - apply in_map_iff in He as (x & <- & Hx). left. exists x. cbn [fst snd]. rewrite Z.mod_mod by lia. auto.
  - apply filter_In in He as (Hm & _). left; auto.
  - apply filter_In in He as (Hm & _). left; auto.
Qed.

Lemma a_origin : forall ops m e, Forall op_ok ops -> In e (snd (a_run m ops)) ->
  (exists e0, In e0 m /\ snd e = snd e0 /\ fst e mod 25 = (fst e0 - advances ops) mod 25) \/
  (exists a o b N, ops = a ++ o :: b /\ schedules o N (snd e) /\ 0 <= N < 25 /\ fst e mod 25 = (N - advances b) mod 25).
Proof.
  induction ops as [|o r IH]; intros m e HF He.
  - left. exists e. cbn [advances]. rewrite Z.sub_0_r. auto.
  - apply Forall_cons_iff in HF as (Ho & HF). cbn [a_run] in He.
    pose proof (fun x => a_step_in m o x Ho) as Hin1. destruct (a_step m o) as [m1 ob]. cbn [fst] in Hin1.
    specialize (IH m1 e HF). destruct (a_run m1 r) as [bs m2].
    destruct (IH He) as [(e1 & Hm1 & Hs1 & Hf1)|(a & o' & b & N & -> & Hsch & HN & Hf)].
    + destruct (Hin1 e1 Hm1) as [(e0 & Hm & Hs0 & Hf0)|(N & Hsch & Hf0 & HN)].
      * left. exists e0. split; [exact Hm|]. split; [congruence|]. rewrite advances_cons.
        rewrite Hf1, <- Zminus_mod_idemp_l, Hf0, Zminus_mod_idemp_l. f_equal. lia.
      * right. exists [], o, r, N. subst N. rewrite Hs1. auto.
    + right. exists (o :: a), o', b, N. auto.
Qed.

Lemma in_due d it m : In it (due d m) -> In (d, it) m.
Proof.
  intros H. apply in_map_iff in H as ([x it'] & <- & Hf). apply filter_In in Hf as (Hm & Hx).
  replace d with x by (cbn [fst] in Hx; lia). exact Hm.
Qed.
