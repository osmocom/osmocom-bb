(* Lemmas for C11, part 3: the firmware scheduler state (tasks, tasks_tgt, safe_fn) and mframe_enable / mframe_disable / mframe_set /
   mframe_reset / mframe_schedule (Model/Mframe.v, names mf_...).  The per-tick core stays fw_mframe_schedule; the agreement theorems of
   Proofs/MframeP.v are lifted from "mask given" to "task active in the scheduler state". *)
From Coq Require Import ZArith List Bool Lia ZifyBool.
From OBB Require Import Base.Lists Base.Range Gen.MframeFw Gen.MframeTrxcon Model.Mframe Proofs.MframeP.
Import ListNotations.
Open Scope Z_scope.

Lemma sweep_set_frames : chk_set_frames = true.
Proof. vm_compute. reflexivity. Qed.

Lemma testbit_one n : Z.testbit 1 n = (n =? 0).
Proof. destruct n as [|p|p]; reflexivity. Qed.

Lemma bit_shl a b : 0 <= b -> Z.testbit (Z.shiftl 1 a) b = (a =? b).
Proof.
  intros Hb. rewrite (Z.shiftl_spec 1 a b Hb), testbit_one.
  destruct (b - a =? 0) eqn:E1; destruct (a =? b) eqn:E2; try reflexivity; lia.
Qed.

Lemma u32_bit x t : 0 <= t < 32 -> Z.testbit (u32 x) t = Z.testbit x t.
Proof. intros Ht. unfold u32. change 4294967296 with (2 ^ 32). apply Z.mod_pow2_bits_low. lia. Qed.

Lemma task_ok_range t : task_ok t = true -> 0 <= t < 32.
Proof. unfold task_ok. lia. Qed.

Lemma enable_bit t' t s : 0 <= t < 32 -> Z.testbit (ms_tgt (mf_enable t' s)) t = Z.testbit (ms_tgt s) t || (t' =? t).
Proof. intros Ht. unfold mf_enable. cbn [ms_tgt]. rewrite (u32_bit _ t Ht), Z.lor_spec, (bit_shl t' t) by lia. reflexivity. Qed.

Lemma disable_bit t' t s : 0 <= t -> Z.testbit (ms_tgt (mf_disable t' s)) t = Z.testbit (ms_tgt s) t && negb (t' =? t).
Proof. intros Ht. unfold mf_disable. cbn [ms_tgt]. rewrite (Z.ldiff_spec _ _ t), (bit_shl t' t Ht). reflexivity. Qed.

Lemma schedule_fields cur s :
  ms_tasks (snd (mf_schedule cur s)) = mf_tasks_after cur s /\ ms_tgt (snd (mf_schedule cur s)) = ms_tgt s.
Proof. unfold mf_schedule. cbv zeta. destruct (fw_mframe_schedule (mf_tasks_after cur s) cur); split; reflexivity. Qed.

Lemma requests_keep_tasks_and_safe : forall o s, (forall cur, o <> OpTick cur) -> o <> OpReset ->
  ms_tasks (mf_step s o) = ms_tasks s /\ ms_safe (mf_step s o) = ms_safe s.
Proof. intros o s Ht Hr. destruct o; cbn [mf_step]; try (split; reflexivity); [contradiction | exfalso; apply (Ht cur); reflexivity]. Qed.

Lemma tasks_after_bit cur s t :
  Z.testbit (mf_tasks_after cur s) t =
  if mf_safe_test cur s then Z.testbit (ms_tgt s) t else Z.testbit (ms_tasks s) t && Z.testbit (ms_tgt s) t.
Proof. unfold mf_tasks_after. destruct (mf_safe_test cur s); [reflexivity | apply Z.land_spec]. Qed.

Lemma fw_sched_tasks_flat mask cur : forall ids cs, fw_sched_tasks mask cur ids = FwOk cs ->
  cs = flat_map (fun i => if Z.testbit mask i then calls_of i cur else []) ids.
Proof.
  induction ids as [|i tl IH]; intros cs H; cbn [fw_sched_tasks] in H; cbn [flat_map].
  - injection H as <-. reflexivity.
  - destruct (Z.testbit mask i).
    + unfold calls_of. destruct (fw_schedule_set i cur) as [| |c]; try discriminate.
      destruct (fw_sched_tasks mask cur tl) as [| |r]; try discriminate.
      injection H as <-. rewrite (IH r eq_refl). reflexivity.
    + cbn [app]. apply IH. exact H.
Qed.

Lemma tick_core : forall cur s, fst (mf_schedule cur s) = fw_mframe_schedule (mf_tasks_after cur s) cur.
Proof. intros. unfold mf_schedule. cbv zeta. destruct (fw_mframe_schedule (mf_tasks_after cur s) cur); reflexivity. Qed.

(* (an explicit equation: conversion must never be asked to compare two unfolded copies of the 32-fold recursion) *)
Lemma core_eq m cur : fw_mframe_schedule m cur = fw_sched_tasks (u32 m) cur (range 0 32).
Proof. reflexivity. Qed.

Lemma core_flat : forall m cur cs, fw_mframe_schedule m cur = FwOk cs ->
  cs = flat_map (fun i => if Z.testbit (u32 m) i then calls_of i cur else []) (range 0 32).
Proof. intros m cur cs H. rewrite core_eq in H. apply (fw_sched_tasks_flat _ _ _ _ H). Qed.

Lemma tick_flat : forall cur s cs, fst (mf_schedule cur s) = FwOk cs -> cs = flat_map (mf_task_calls cur s) (range 0 32).
Proof.
  intros cur s cs H. rewrite tick_core in H. rewrite (core_flat _ _ _ H).
  apply flat_map_ext_in. intros i Hi. apply range_in in Hi.
  unfold mf_task_calls. rewrite (u32_bit _ i ltac:(lia)). reflexivity.
Qed.

Lemma fires_active : forall cur s t kind sacch, Z.testbit (mf_tasks_after cur s) t = true ->
  mf_fires cur s t kind sacch = fw_fires t kind sacch cur.
Proof.
  intros cur s t kind sacch H. unfold mf_fires, mf_task_calls, calls_of, fw_fires. rewrite H.
  destruct (fw_schedule_set t cur); reflexivity.
Qed.

Lemma disable_immediate : forall cur s t, Z.testbit (ms_tgt s) t = false ->
  Z.testbit (mf_tasks_after cur s) t = false /\ mf_task_calls cur s t = [] /\ forall kind sacch, mf_fires cur s t kind sacch = false.
Proof.
  intros cur s t H.
  assert (E : Z.testbit (mf_tasks_after cur s) t = false).
  { rewrite (tasks_after_bit cur s t), H. destruct (mf_safe_test cur s); [reflexivity | apply andb_false_r]. }
  split; [exact E|]. unfold mf_fires, mf_task_calls. rewrite E. split; reflexivity.
Qed.

Lemma run_preserves (P : mfst -> Prop) (ok : mfop -> bool) :
  (forall o s, ok o = true -> P s -> P (mf_step s o)) -> forall ops s, forallb ok ops = true -> P s -> P (mf_run ops s).
Proof.
  intros Hstep. induction ops as [|o tl IH]; intros s Hk H; [exact H|].
  cbn [forallb] in Hk. apply andb_prop in Hk as [Ho Htl]. apply (IH (mf_step s o) Htl), Hstep; assumption.
Qed.

Lemma stays_off : forall t ops s, 0 <= t < 32 -> forallb (op_keeps_off t) ops = true ->
  Z.testbit (ms_tgt s) t = false -> Z.testbit (ms_tgt (mf_run ops s)) t = false.
Proof.
  intros t ops s Ht. apply (run_preserves (fun s => Z.testbit (ms_tgt s) t = false)). clear ops s. intros o s Ho H.
  destruct o as [t'|t'|m| |cur]; cbn [op_keeps_off] in Ho; cbn [mf_step].
  - apply andb_prop in Ho as [_ Hne]. rewrite (enable_bit t' t s Ht), H. apply negb_true_iff in Hne. rewrite Hne. reflexivity.
  - rewrite (disable_bit t' t s (proj1 Ht)), H. reflexivity.
  - apply negb_true_iff in Ho. exact Ho.
  - apply Z.testbit_0_l.
  - rewrite (proj2 (schedule_fields cur s)). exact H.
Qed.

Lemma keeps_on_step t o s : 0 <= t < 32 -> op_keeps_on t o = true ->
  Z.testbit (ms_tgt s) t = true -> Z.testbit (ms_tgt (mf_step s o)) t = true.
Proof.
  intros Ht Ho H. destruct o as [t'|t'|m| |cur]; cbn [op_keeps_on] in Ho; cbn [mf_step].
  - rewrite (enable_bit t' t s Ht), H. reflexivity.
  - apply andb_prop in Ho as [_ Hne]. rewrite (disable_bit t' t s (proj1 Ht)), H, Hne. reflexivity.
  - exact Ho.
  - discriminate.
  - rewrite (proj2 (schedule_fields cur s)). exact H.
Qed.

Lemma request_kept : forall t ops s, 0 <= t < 32 -> forallb (op_keeps_on t) ops = true ->
  Z.testbit (ms_tgt s) t = true -> Z.testbit (ms_tgt (mf_run ops s)) t = true.
Proof.
  intros t ops s Ht. apply (run_preserves (fun s => Z.testbit (ms_tgt s) t = true)). intros o s'. apply (keeps_on_step t o s' Ht).
Qed.

Lemma safe_means_target : forall cur s, mf_safe_test cur s = true -> mf_tasks_after cur s = ms_tgt s.
Proof. intros cur s H. unfold mf_tasks_after. rewrite H. reflexivity. Qed.

Lemma tick_activates c s t : Z.testbit (ms_tgt s) t = true -> mf_safe_test c s = true \/ Z.testbit (ms_tasks s) t = true ->
  Z.testbit (ms_tasks (snd (mf_schedule c s))) t = true /\ Z.testbit (ms_tgt (snd (mf_schedule c s))) t = true.
Proof.
  intros Hg H. destruct (schedule_fields c s) as [-> ->]. split; [|exact Hg]. rewrite (tasks_after_bit c s t), Hg.
  destruct (mf_safe_test c s); [reflexivity | destruct H as [H|H]; [discriminate | rewrite H; reflexivity]].
Qed.

Lemma stays_on : forall t ops s, 0 <= t < 32 -> forallb (op_keeps_on t) ops = true ->
  Z.testbit (ms_tasks s) t = true -> Z.testbit (ms_tgt s) t = true ->
  Z.testbit (ms_tasks (mf_run ops s)) t = true /\ Z.testbit (ms_tgt (mf_run ops s)) t = true.
Proof.
  intros t ops s Ht Hk H1 H2.
  apply (run_preserves (fun s => Z.testbit (ms_tasks s) t = true /\ Z.testbit (ms_tgt s) t = true) (op_keeps_on t));
    [clear ops s Hk H1 H2 | exact Hk | split; assumption].
  intros o s Ho [A B]. split; [|apply keeps_on_step; assumption].
  destruct o as [t'|t'|m| |cur]; cbn [mf_step]; try exact A; [discriminate|].
  exact (proj1 (tick_activates cur s t B (or_intror A))).
Qed.

Lemma safe_test_true cur s : mf_safe_test cur s = true <->
  (s32 (ms_safe s - cur) <= 0 \/ 1357824 <= s32 (ms_safe s - cur) \/ 2715648 <= ms_safe s).
Proof.
  unfold mf_safe_test, fw_GSM_MAX_FN. change (Z.shiftr 2715648 1) with 1357824. cbv zeta.
  rewrite !Z.geb_leb, !orb_true_iff, !Z.leb_le. tauto.
Qed.

Lemma inv_cases cur s : mf_inv cur s = true <->
  0 <= ms_safe s /\ (2715648 <= ms_safe s \/ (ms_safe s - cur) mod 2715648 <= 4).
Proof. unfold mf_inv. rewrite andb_true_iff, orb_true_iff, !Z.leb_le. tauto. Qed.

Lemma safe_test_false c s : 0 <= c < 2715648 -> 0 <= ms_safe s ->
  mf_safe_test c s = false <-> 0 < ms_safe s - c < 1357824 /\ ms_safe s < 2715648.
Proof.
  intros Hc Hs. rewrite <- not_true_iff_false, safe_test_true.
  destruct (Z_lt_le_dec (ms_safe s) 2715648) as [Hv|Hv]; [rewrite s32_small by lia|]; lia.
Qed.

Lemma safe_after_at_most_4 : forall cur s j, 0 <= cur < 2715648 -> mf_inv cur s = true ->
  0 <= j <= 4 -> (2715648 <= ms_safe s \/ (ms_safe s - cur) mod 2715648 <= j) ->
  mf_safe_test ((cur + j) mod 2715648) s = true.
Proof.
  intros cur s j Hc Hi Hj Ha. apply inv_cases in Hi as [H0 _].
  apply not_false_iff_true. rewrite safe_test_false by (try apply Z.mod_pos_bound; lia).
  Z.div_mod_to_equations. lia.
Qed.

Lemma not_safe_next : forall cur s, 0 <= cur < 2715648 -> mf_inv cur s = true ->
  mf_safe_test ((cur + 1) mod 2715648) s = false ->
  ms_safe s < 2715648 /\ 2 <= (ms_safe s - cur) mod 2715648 <= 4 /\
  (ms_safe s - (cur + 1) mod 2715648) mod 2715648 = (ms_safe s - cur) mod 2715648 - 1.
Proof.
  intros cur s Hc Hi Hn. apply inv_cases in Hi as [H0 Hi].
  apply safe_test_false in Hn; [|apply Z.mod_pos_bound; lia | lia].
  Z.div_mod_to_equations. lia.
Qed.

Lemma set_items_kinds task cur : forall items cs, fw_set_items task cur items = Some cs ->
  forall o k p3, In (o, k, p3) cs -> exists m f fl, In (k, m, f, fl) items.
Proof.
  induction items as [|it tl IH]; intros cs H o k p3 Hin; cbn [fw_set_items] in H.
  - injection H as <-. contradiction.
  - destruct it as [[[k0 m0] f0] fl0]. destruct (m0 =? 0); [discriminate|].
    destruct (fw_set_items task cur tl) as [r|] eqn:E; [|discriminate]. injection H as <-.
    destruct (u32 (cur + fw_SCHEDULE_AHEAD) mod m0 =? f0 mod m0).
    + destruct Hin as [Hin|Hin].
      * injection Hin as _ <- _. exists m0, f0, fl0. left. reflexivity.
      * destruct (IH r eq_refl o k p3 Hin) as [m [f [fl Hi]]]. exists m, f, fl. right. exact Hi.
    + destruct (IH r eq_refl o k p3 Hin) as [m [f [fl Hi]]]. exists m, f, fl. right. exact Hi.
Qed.

Lemma calls_frames t cur : forall o k p3, In (o, k, p3) (calls_of t cur) -> 2 <= set_rv k <= 6.
Proof.
  intros o k p3 Hin. unfold calls_of, fw_schedule_set in Hin.
  destruct (nth_error fw_sched (Z.to_nat t)) as [[items|]|] eqn:E; try contradiction.
  destruct (fw_set_items t cur items) as [cs|] eqn:E2; [|contradiction].
  destruct (set_items_kinds t cur items cs E2 o k p3 Hin) as [m [f [fl Hi]]].
  pose proof sweep_set_frames as S. unfold chk_set_frames in S.
  pose proof (forallb_In _ _ S (Some items) (nth_error_In _ _ E)) as S2. cbv beta iota in S2.
  pose proof (forallb_In _ _ S2 (k, m, f, fl) Hi) as S3. cbv beta iota in S3. lia.
Qed.

Definition safe_ok (cur safe : Z) : Prop := 0 <= safe < 4294967296 /\ (2715648 <= safe \/ (safe - cur) mod 2715648 <= 4).

Lemma add_modulo_mod x d : 0 <= x < 2715648 -> 0 <= d <= 2715648 -> add_modulo (u32 x) d 2715648 = (x + d) mod 2715648.
Proof.
  intros Hx Hd. unfold add_modulo, u32. rewrite (Z.mod_small x 4294967296), (Z.mod_small (x + d) 4294967296) by lia.
  destruct (x + d >=? 2715648) eqn:E; [rewrite Z.mod_small by lia|]; Z.div_mod_to_equations; lia.
Qed.

Lemma safe_upd_ok cur safe o k p3 : 0 <= cur < 2715648 -> 2 <= set_rv k <= 6 -> safe_ok cur safe -> safe_ok cur (safe_upd cur safe (o, k, p3)).
Proof.
  intros Hc Hk Hs. unfold safe_upd, fw_GSM_MAX_FN. rewrite add_modulo_mod by lia.
  match goal with |- safe_ok _ (if ?c then _ else _) => destruct c end; [|exact Hs].
  unfold safe_ok. Z.div_mod_to_equations. lia.
Qed.

Lemma fold_safe_ok cur : 0 <= cur < 2715648 -> forall cs safe, (forall o k p3, In (o, k, p3) cs -> 2 <= set_rv k <= 6) ->
  safe_ok cur safe -> safe_ok cur (fold_left (safe_upd cur) cs safe).
Proof.
  intros Hc. induction cs as [|[[o k] p3] tl IH]; intros safe Hk Hs; cbn [fold_left]; [exact Hs|].
  apply IH; [intros o' k' p' Hin; apply (Hk o' k' p'); right; exact Hin|].
  apply safe_upd_ok; [exact Hc | apply (Hk o k p3); left; reflexivity | exact Hs].
Qed.

Lemma safe_ok_inv cur s : safe_ok cur (ms_safe s) -> mf_inv cur s = true /\ ms_safe s < 4294967296.
Proof. intros [[H0 H32] H]. split; [apply inv_cases; split; assumption | exact H32]. Qed.

Lemma tick_safe_ok c s : 0 <= c < 2715648 -> safe_ok c (mf_safe_after_test c s) ->
  mf_inv c (snd (mf_schedule c s)) = true /\ ms_safe (snd (mf_schedule c s)) < 4294967296.
Proof.
  intros Hc S0. apply safe_ok_inv. unfold mf_schedule. cbv zeta.
  destruct (fw_mframe_schedule (mf_tasks_after c s) c) as [| |cs] eqn:E; cbn [snd ms_safe]; try exact S0.
  apply (fold_safe_ok c Hc); [|exact S0].
  intros o k p3 Hin. rewrite (tick_flat c s cs) in Hin by (rewrite tick_core; exact E).
  apply in_flat_map in Hin as [t [_ Hin]]. unfold mf_task_calls in Hin.
  destruct (Z.testbit (mf_tasks_after c s) t); [exact (calls_frames t c o k p3 Hin) | contradiction].
Qed.

Lemma inv_tick : forall cur s, 0 <= cur < 2715648 -> ms_safe s < 4294967296 -> mf_inv cur s = true ->
  let c1 := (cur + 1) mod 2715648 in
  mf_inv c1 (snd (mf_schedule c1 s)) = true /\ ms_safe (snd (mf_schedule c1 s)) < 4294967296.
Proof.
  intros cur s Hc H32 Hi c1.
  apply tick_safe_ok; [apply Z.mod_pos_bound; lia|].
  unfold mf_safe_after_test. destruct (mf_safe_test c1 s) eqn:T.
  - split; [lia | left; lia].
  - destruct (not_safe_next cur s Hc Hi T) as [Hv [Ha Hd]]. apply inv_cases in Hi as [H0 _].
    split; [lia|]. right. fold c1 in Hd. lia.
Qed.

Lemma inv_first_tick : forall c1 s, 0 <= c1 < 2715648 -> 2715648 <= ms_safe s < 4294967296 ->
  mf_inv c1 (snd (mf_schedule c1 s)) = true /\ ms_safe (snd (mf_schedule c1 s)) < 4294967296.
Proof.
  intros c1 s Hc1 Hs. apply (tick_safe_ok c1 s Hc1).
  assert (T : mf_safe_test c1 s = true) by (apply safe_test_true; right; right; lia).
  unfold mf_safe_after_test. rewrite T. split; [lia | left; lia].
Qed.

Lemma inv_reset : forall cur, mf_inv cur mf_reset = true /\ ms_safe mf_reset = 4294967295.
Proof. intros cur. split; [apply inv_cases; cbn [mf_reset ms_safe]; lia | reflexivity]. Qed.

Lemma quiet_tick_safe : forall cur s, fst (mf_schedule cur s) = FwOk [] ->
  ms_safe (snd (mf_schedule cur s)) = mf_safe_after_test cur s.
Proof.
  intros cur s H. rewrite tick_core in H. unfold mf_schedule. cbv zeta. rewrite H. reflexivity.
Qed.

Lemma safe_after_4 cur s : 0 <= cur < 2715648 -> mf_inv cur s = true -> mf_safe_test ((cur + 4) mod 2715648) s = true.
Proof.
  intros Hc Hi. apply (safe_after_at_most_4 cur s 4 Hc Hi); [lia|]. apply inv_cases in Hi as [_ Hi]. exact Hi.
Qed.

(* liveness: the state as left by the tick of frame cur (invariant), task t requested; if the next three ticks start no set, t is
   active after the fourth tick at the latest. After each quiet tick t is either active (Act: and stays so) or still pending with the
   safe_fn of s0 (Pend); pending before the fourth tick, its test holds *)
Lemma enable_live : forall s0 cur t, 0 <= cur < 2715648 -> 0 <= t < 32 -> ms_safe s0 < 4294967296 -> mf_inv cur s0 = true ->
  Z.testbit (ms_tgt s0) t = true ->
  let c1 := (cur + 1) mod 2715648 in let c2 := (cur + 2) mod 2715648 in
  let c3 := (cur + 3) mod 2715648 in let c4 := (cur + 4) mod 2715648 in
  let s1 := snd (mf_schedule c1 s0) in let s2 := snd (mf_schedule c2 s1) in
  let s3 := snd (mf_schedule c3 s2) in let s4 := snd (mf_schedule c4 s3) in
  fst (mf_schedule c1 s0) = FwOk [] -> fst (mf_schedule c2 s1) = FwOk [] -> fst (mf_schedule c3 s2) = FwOk [] ->
  Z.testbit (ms_tasks s4) t = true.
Proof.
  intros s0 cur t Hc _ _ Hi Hg c1 c2 c3 c4 s1 s2 s3 s4 Q1 Q2 Q3.
  set (Act := fun s => Z.testbit (ms_tasks s) t = true /\ Z.testbit (ms_tgt s) t = true).
  set (Pend := fun s => Z.testbit (ms_tgt s) t = true /\ ms_safe s = ms_safe s0).
  assert (K : forall c s, Act s -> Act (snd (mf_schedule c s))) by (intros c s [A B]; exact (tick_activates c s t B (or_intror A))).
  assert (W : forall c s, Pend s -> fst (mf_schedule c s) = FwOk [] -> Act (snd (mf_schedule c s)) \/ Pend (snd (mf_schedule c s))).
  { intros c s [Hgt Hs] Q. destruct (mf_safe_test c s) eqn:Ts; [left; exact (tick_activates c s t Hgt (or_introl Ts))|].
    right. split; [rewrite (proj2 (schedule_fields c s)); exact Hgt | rewrite (quiet_tick_safe c s Q); unfold mf_safe_after_test; rewrite Ts; exact Hs]. }
  destruct (W c1 s0 (conj Hg eq_refl) Q1) as [A1|P1]; [exact (proj1 (K c4 _ (K c3 _ (K c2 _ A1))))|].
  destruct (W c2 s1 P1 Q2) as [A2|P2]; [exact (proj1 (K c4 _ (K c3 _ A2)))|].
  destruct (W c3 s2 P2 Q3) as [A3|[G3 E3]]; [exact (proj1 (K c4 _ A3))|].
  apply (tick_activates c4 s3 t G3). left. unfold mf_safe_test, s3. rewrite E3. exact (safe_after_4 cur s0 Hc Hi).
Qed.

(* non-vacuity: BCCH running, CCCH requested one frame after a BCCH block was started (tick 0 starts the block of frames 2..5, safe_fn = 4):
   the ticks of frames 1, 2, 3 are not safe and leave the request pending, the tick of frame 4 takes it over (and starts the CCCH block of frames 6..9: safe_fn = 8); a disabled task is dropped at once *)
Example ex_deferred_enable :
  let s0 := mf_run [OpEnable fw_MF_TASK_BCCH_NORM; OpTick 0; OpEnable fw_MF_TASK_CCCH] mf_reset in
  ms_safe s0 = 4 /\ mf_inv 0 s0 = true /\
  map (fun c => mf_safe_test c s0) [1; 2; 3; 4] = [false; false; false; true] /\
  mf_run [OpTick 1; OpTick 2; OpTick 3] s0 = mkmf 1 5 4 /\
  mf_run [OpTick 1; OpTick 2; OpTick 3; OpTick 4] s0 = mkmf 5 5 8 /\
  mf_run [OpDisable fw_MF_TASK_BCCH_NORM; OpTick 1] s0 = mkmf 0 4 4.
Proof. vm_compute. repeat split; reflexivity. Qed.
