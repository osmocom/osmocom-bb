(* handle_data (FakeTRX.handle_data_msg) characterised: NOPE/suppression branch (C18) and the normal branch with its metadata (C10) *)
From Coq Require Import ZArith List Bool Lia ZifyBool.
From OBB Require Import Gen.FakeTrxConst Model.Trxd Model.Trx
  Proofs.TrxdBase Proofs.TrxdTx Proofs.TrxdRx Proofs.TrxdRxRT Proofs.TrxDrop.
Import ListNotations.
Open Scope Z_scope.

(* simulation parameters any command history can reach (sim0 has them and fake_handler keeps them: TrxInv.v) *)
Definition sim_ok (s : sim) : Prop :=
  0 <= s_toa_thr s /\ 0 <= s_rssi_thr s /\ 0 <= s_ci_thr s /\ 0 <= s_drop s /\ 0 < s_period s.

Lemma randint_range lo hi draws : lo <= hi -> exists v d', randint lo hi draws = Some (v, d') /\ lo <= v <= hi.
Proof.
  intros H. unfold randint. destruct (hi <? lo) eqn:E; [lia|]. destruct draws as [|r rest].
  - exists lo, []. split; [reflexivity|lia].
  - exists (lo + r mod (hi - lo + 1)), rest. split; [reflexivity|]. pose proof (Z.mod_pos_bound r (hi - lo + 1) ltac:(lia)). lia.
Qed.
Lemma draw_range base thr draws : 0 <= thr -> exists v d', draw base thr draws = Some (v, d') /\ base - thr <= v <= base + thr
  /\ (thr = 0 -> v = base).
Proof.
  intros H. unfold draw. destruct (thr =? 0) eqn:E.
  - exists base, draws. split; [reflexivity|]. split; [lia|reflexivity].
  - destruct (randint_range (base - thr) (base + thr) draws ltac:(lia)) as [v [d' [E1 E2]]]. exists v, d'. split; [exact E1|]. split; [exact E2|lia].
Qed.

(* RSSI is drawn only under FAKE_RSSI, C/I only from version 1 on *)
Lemma draw_if (b : bool) base thr c draws : 0 <= thr ->
  exists v d', (if b then draw base thr draws else Some (c, draws)) = Some (v, d')
    /\ (b = false -> v = c) /\ (b = true -> base - thr <= v <= base + thr) /\ (b = true -> thr = 0 -> v = base).
Proof.
  intros H. destruct b.
  - destruct (draw_range base thr draws H) as [v [d' [E [R Z]]]]. exists v, d'.
    split; [exact E|]. split; [discriminate|]. split; [intros _; exact R|intros _; exact Z].
  - exists c, draws. split; [reflexivity|]. split; [reflexivity|]. split; discriminate.
Qed.

(* the NOPE indication a version >= 1 recipient gets for a suppressed burst *)
Definition nope_msg (msg : rxmsg) : rxmsg :=
  with_meta msg true (Some rssi_noise_default) (Some toa256_noise_default) (r_mod msg) (r_tset msg) (r_tsc msg) (Some ci_noise_default) None.

(* receiver muted, or the burst was stripped by a muted sender: suppressed, the drop counter is not consumed *)
Lemma handle_suppressed dst src sm msg draws : s_muted dst = true \/ r_nope msg = true ->
  handle_data dst src sm msg draws = (dst, if r_ver msg <? 1 then Silent None else send_out false (nope_msg msg), draws).
Proof.
  intros H. unfold handle_data, nope_msg.
  destruct (s_muted dst) eqn:Em.
  - destruct (r_ver msg <? 1); reflexivity.
  - destruct H as [H|H]; [discriminate|]. rewrite H. destruct (r_ver msg <? 1); reflexivity.
Qed.

Lemma handle_dropped dst src sm msg draws : s_muted dst = false -> r_nope msg = false -> fst (sim_drop dst (oz (r_fn msg))) = true ->
  handle_data dst src sm msg draws =
    (snd (sim_drop dst (oz (r_fn msg))), if r_ver msg <? 1 then Silent None else send_out false (nope_msg msg), draws).
Proof.
  intros Hm Hn Hd. unfold handle_data, nope_msg. rewrite Hm, Hn, (surjective_pairing (sim_drop dst (oz (r_fn msg)))), Hd.
  destruct (r_ver msg <? 1); reflexivity.
Qed.

Lemma nope_sent msg : r_ver msg = 1 -> (exists f, r_fn msg = Some f /\ 0 <= f <= 2715647) -> (exists t, r_tn msg = Some t /\ 0 <= t <= 7) ->
  exists b, send_out false (nope_msg msg) = Sent b (nope_msg msg) /\
    exists m', parse_rx b = Ok m' /\ r_nope m' = true /\ r_burst m' = None /\ r_rssi m' = Some (-110) /\ r_toa m' = Some 0 /\ r_ci m' = Some (-30)
               /\ r_fn m' = r_fn msg /\ r_tn m' = r_tn msg /\ r_ver m' = 1.
Proof.
  intros Hv Hf Ht.
  (* the header is in range by hypothesis, the noise-level values by evaluation *)
  assert (Hval : validate_rx (nope_msg msg) = Ok tt).
  { unfold validate_rx, nope_msg, with_meta. cbn [r_ver r_fn r_tn r_rssi r_toa r_nope r_ci r_burst r_mod r_tset r_tsc].
    rewrite Hv, (proj2 (decides_iff _ _ (validate_common_decides 1 _ _))) by (split; [right; reflexivity|split; assumption]).
    reflexivity. }
  destruct (proj2 (gen_rx_iff _ false) Hval) as [b Hb].
  exists b. unfold send_out. rewrite Hb. split; [reflexivity|].
  destruct (rx_roundtrip (nope_msg msg) false b I Hb) as [m' [Hp Hc]]. exists m'. split; [exact Hp|].
  destruct (carried_eq _ _ Hc) as (Ev & Ef & Et & Er & Ea & Eb & E1). change (r_ver (nope_msg msg)) with (r_ver msg) in *.
  destruct E1 as [En Ec]; [rewrite Hv; discriminate|]. rewrite Ev, Ef, Et, Er, Ea, Eb, En, Ec, Hv. repeat split; reflexivity.
Qed.

(* the normal branch: meta_msg is the message handed to send_msg(legacy=True) *)
Definition tsc_of (bits : list Z) : Z * Z :=      (* (tsc, tsc_set) picked for a GMSK burst *)
  match ts_pick bits with Some (c, _, s, _) => (c, s) | None => (0, 0) end.

Definition meta_msg (ver : Z) (sm : txmsg) (bits : list Z) (rssi toa ci : Z) : rxmsg :=
  if ver >=? 1 then
    let md := pick_by_bl (Z.of_nat (length bits)) in
    let '(tsc, tset) := match md with Some O => tsc_of bits | _ => (0, 0) end in
    {| r_ver := ver; r_fn := t_fn sm; r_tn := t_tn sm; r_rssi := Some rssi; r_toa := Some toa; r_nope := false;
       r_mod := md; r_tset := Some tset; r_tsc := Some tsc; r_ci := Some ci; r_burst := Some (map u2s bits) |}
  else
    {| r_ver := ver; r_fn := t_fn sm; r_tn := t_tn sm; r_rssi := Some rssi; r_toa := Some toa; r_nope := false;
       r_mod := Some GMSK_IDX; r_tset := None; r_tsc := None; r_ci := None; r_burst := Some (map u2s bits) |}.

Lemma meta_msg_fields ver sm bits rssi toa ci :
  let m := meta_msg ver sm bits rssi toa ci in
  r_ver m = ver /\ r_fn m = t_fn sm /\ r_tn m = t_tn sm /\ r_burst m = Some (map u2s bits) /\ r_nope m = false
  /\ r_rssi m = Some rssi /\ r_toa m = Some toa
  /\ (ver >=? 1 = true -> r_ci m = Some ci /\ r_mod m = pick_by_bl (Z.of_nat (length bits))
       /\ (r_mod m = Some GMSK_IDX -> r_tsc m = Some (fst (tsc_of bits)) /\ r_tset m = Some (snd (tsc_of bits)))
       /\ (r_mod m <> Some GMSK_IDX -> r_tsc m = Some 0 /\ r_tset m = Some 0)).
Proof.
  unfold meta_msg. destruct (ver >=? 1).
  - destruct (pick_by_bl (Z.of_nat (length bits))) as [[|k]|]; [destruct (tsc_of bits)|..]; cbn [r_mod r_tsc r_tset fst snd].
    all: do 7 (split; [reflexivity|]); intros _; do 2 (split; [reflexivity|]); split.
    all: try discriminate; try (intros _; split; reflexivity).
    intros H. contradiction H. reflexivity.
  - do 7 (split; [reflexivity|]). discriminate.
Qed.

Lemma handle_normal dst src sm bits ver draws :
  sim_ok dst -> s_muted dst = false -> t_burst sm = Some bits -> fst (sim_drop dst (oz (t_fn sm))) = false ->
  exists toa rssi ci d',
    handle_data dst src sm (trans sm ver) draws = (dst, send_out true (meta_msg ver sm bits rssi (toa - 256 * s_ta src) ci), d')
    /\ s_toa dst - s_toa_thr dst <= toa <= s_toa dst + s_toa_thr dst
    /\ (s_fake_rssi dst = false -> rssi = s_txp src - s_att src - oz (t_pwr sm) - 110)
    /\ (s_fake_rssi dst = true -> s_rssi dst - s_rssi_thr dst <= rssi <= s_rssi dst + s_rssi_thr dst)
    /\ (ver >=? 1 = true -> s_ci dst - s_ci_thr dst <= ci <= s_ci dst + s_ci_thr dst)
    /\ (s_toa_thr dst = 0 -> toa = s_toa dst) /\ (s_rssi_thr dst = 0 -> s_fake_rssi dst = true -> rssi = s_rssi dst)
    /\ (ver >=? 1 = true -> s_ci_thr dst = 0 -> ci = s_ci dst).
Proof.
  intros [Ht [Hr [Hc _]]] Hm Hb Hdrop.
  unfold handle_data, trans, with_meta. cbn [r_ver r_fn r_tn r_nope r_burst r_mod r_tset r_tsc r_ci].
  rewrite Hm, Hb, (surjective_pairing (sim_drop dst (oz (t_fn sm)))), sim_drop_snd, Hdrop.
  destruct (draw_range (s_toa dst) (s_toa_thr dst) draws Ht) as [toa [d1 [-> [R1 Z1]]]].
  destruct (draw_if (s_fake_rssi dst) (s_rssi dst) (s_rssi_thr dst) (s_txp src - s_att src - oz (t_pwr sm) - path_loss_default) d1 Hr)
    as [rssi [d2 [-> [C2 [R2 Z2]]]]].
  destruct (draw_if (ver >=? 1) (s_ci dst) (s_ci_thr dst) 0 d2 Hc) as [ci [d3 [-> [_ [R3 Z3]]]]].
  exists toa, rssi, ci, d3. split.
  - replace (if s_ta src =? 0 then toa else toa - s_ta src * 256) with (toa - 256 * s_ta src) by (destruct (s_ta src =? 0) eqn:E; lia).
    unfold meta_msg, tsc_of. destruct (ver >=? 1); [|reflexivity].
    destruct (pick_by_bl (Z.of_nat (length bits))) as [[|k]|]; try reflexivity.
    destruct (ts_pick bits) as [[[[c bt] s] bb]|]; reflexivity.
  - split; [exact R1|]. split; [exact C2|]. split; [exact R2|]. split; [exact R3|].
    split; [exact Z1|]. split; [intros H H'; exact (Z2 H' H)|exact Z3].
Qed.
