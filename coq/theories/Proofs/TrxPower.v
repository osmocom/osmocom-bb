(* C12: power events, child transceivers, clock links *)
From Coq Require Import ZArith List Bool Lia ZifyBool.
From OBB Require Import Base.Lists Model.Trx Proofs.TrxInv.
Import ListNotations.
Open Scope Z_scope.

Lemma fold_upd_nth {A} (f : A -> A) : (forall x, f (f x) = f x) -> forall idxs l k,
  nth_error (fold_left (fun l j => upd l j f) idxs l) k = if mem_nat k idxs then option_map f (nth_error l k) else nth_error l k.
Proof.
  intros Hf. induction idxs as [|j r IH]; intros l k; cbn [fold_left mem_nat existsb]; [reflexivity|].
  rewrite IH. rewrite upd_nth. unfold mem_nat. rewrite (Nat.eqb_sym k j).
  destruct (Nat.eqb j k) eqn:E; cbn [orb]; [|reflexivity].
  destruct (existsb (Nat.eqb k) r); [|reflexivity]. destruct (nth_error l k); cbn [option_map]; [rewrite Hf|]; reflexivity.
Qed.

(* one power event, transceiver by transceiver: the affected ones get the new power state (and lose queue and hopping on power-off),
   all others are untouched; only power state, queue and hopping can change at all *)
Lemma power_event_nth w i on t k : nth_error (w_trx w) i = Some t ->
  nth_error (w_trx (power_event w i on)) k =
  if mem_nat k (affected t i) then option_map (power_one on) (nth_error (w_trx w) k) else nth_error (w_trx w) k.
Proof.
  intros Ht. unfold power_event. rewrite Ht.
  destruct (c_clock (x_cfg t)); cbn [w_trx]; apply fold_upd_nth; intros u; unfold power_one; destruct on; reflexivity.
Qed.

Lemma power_one_fields on t : x_run (power_one on t) = on /\ x_rx (power_one on t) = x_rx t /\ x_tx (power_one on t) = x_tx t
  /\ x_ver (power_one on t) = x_ver t /\ x_sim (power_one on t) = x_sim t /\ x_cfg (power_one on t) = x_cfg t
  /\ (on = false -> x_q (power_one on t) = [] /\ x_fh (power_one on t) = None)
  /\ (on = true -> x_q (power_one on t) = x_q t /\ x_fh (power_one on t) = x_fh t).
Proof. unfold power_one. destruct on; cbn; repeat split; auto; discriminate. Qed.

Lemma power_event_links w i on t : nth_error (w_trx w) i = Some t ->
  w_links (power_event w i on) =
    (if c_clock (x_cfg t) then
       if negb on && mem_nat i (w_links w) then remove_nat i (w_links w)
       else if on && negb (mem_nat i (w_links w)) then w_links w ++ [i] else w_links w
     else w_links w)
  /\ w_gen (power_event w i on) = (if c_clock (x_cfg t) then (0 <? length (w_links (power_event w i on)))%nat else w_gen w).
Proof.
  intros Ht. unfold power_event. rewrite Ht. destruct (c_clock (x_cfg t)); cbn [w_links w_gen]; [|auto].
  split; [reflexivity|]. destruct (w_gen w); cbn [negb andb].
  - destruct (length _) eqn:E; reflexivity.
  - destruct (length _) eqn:E; reflexivity.
Qed.

(* static wiring produced by the application: children never own a clock *)
Definition cfg_ok (w : world) : Prop :=
  forall p tp c tc, nth_error (w_trx w) p = Some tp -> In c (c_children (x_cfg tp)) -> nth_error (w_trx w) c = Some tc ->
    c_clock (x_cfg tc) = false /\ c <> p.

Lemma mem_nat_In k l : mem_nat k l = true <-> In k l.
Proof. unfold mem_nat. rewrite existsb_exists. split; [intros [x [Hx E]]; apply Nat.eqb_eq in E; subst; exact Hx|intros H; exists k; split; [exact H|apply Nat.eqb_refl]]. Qed.

Lemma remove_nat_In x : forall l, NoDup l -> forall k, In k (remove_nat x l) <-> In k l /\ k <> x.
Proof.
  induction l as [|y r IH]; intros Hn k; cbn [remove_nat]; [tauto|].
  inversion Hn as [|y' r' Hy Hr]; subst. cbn [In]. destruct (Nat.eqb_spec x y) as [->|E]; [|cbn [In]; rewrite IH by exact Hr]; intuition congruence.
Qed.
Lemma remove_nat_NoDup x : forall l, NoDup l -> NoDup (remove_nat x l).
Proof.
  induction l as [|y r IH]; intros Hn; cbn [remove_nat]; [constructor|].
  inversion Hn as [|y' r' Hy Hr]; subst. destruct (Nat.eqb x y); [exact Hr|]. constructor; [|apply IH, Hr].
  intros H. apply remove_nat_In in H; [|exact Hr]. tauto.
Qed.

Definition links_inv (w : world) : Prop :=
  NoDup (w_links w) /\
  (forall k, In k (w_links w) <-> exists t, nth_error (w_trx w) k = Some t /\ x_run t = true /\ c_clock (x_cfg t) = true) /\
  w_gen w = (0 <? length (w_links w))%nat.

Lemma upd_cfgs (f : trx -> trx) : (forall t, x_cfg (f t) = x_cfg t) -> forall l j, map x_cfg (upd l j f) = map x_cfg l.
Proof. intros Hf. induction l as [|x r IH]; intros [|j]; cbn [upd map]; rewrite ?Hf, ?IH; reflexivity. Qed.

Lemma power_event_cfgs w i on : map x_cfg (w_trx (power_event w i on)) = map x_cfg (w_trx w).
Proof.
  apply (power_event_trxs (fun l => map x_cfg l = map x_cfg (w_trx w))); [|reflexivity].
  intros l j <-. apply upd_cfgs. intros u. apply power_one_fields.
Qed.

Lemma cfg_ok_mono w w' : (forall k u, nth_error (w_trx w') k = Some u -> exists u0, nth_error (w_trx w) k = Some u0 /\ x_cfg u = x_cfg u0) ->
  cfg_ok w -> cfg_ok w'.
Proof.
  intros S H p tp c tc Hp Hc Htc. destruct (S p tp Hp) as [tp0 [Hp0 Ep]]. destruct (S c tc Htc) as [tc0 [Hc0 Ec]].
  rewrite Ep in Hc. rewrite Ec. exact (H p tp0 c tc0 Hp0 Hc Hc0).
Qed.

Lemma cfg_ok_power w i on : cfg_ok w -> cfg_ok (power_event w i on).
Proof.
  apply cfg_ok_mono. intros k u Hk. pose proof (f_equal (fun l => nth_error l k) (power_event_cfgs w i on)) as E.
  cbv beta in E. rewrite !nth_error_map, Hk in E. destruct (nth_error (w_trx w) k) as [u0|]; [|discriminate]. injection E as E. eauto.
Qed.

Lemma links_update i on l : NoDup l ->
  let l' := if negb on && mem_nat i l then remove_nat i l else if on && negb (mem_nat i l) then l ++ [i] else l in
  NoDup l' /\ forall k, In k l' <-> if Nat.eqb k i then on = true else In k l.
Proof.
  intros Hn. pose proof (mem_nat_In i l) as Hm. split.
  - destruct on, (mem_nat i l); cbn [negb andb]; [exact Hn| |apply remove_nat_NoDup, Hn|exact Hn].
    apply NoDup_app_intro; [exact Hn|constructor; [intros []|constructor]|]. intros k H [<-|[]]. apply Hm in H. discriminate.
  - intros k. destruct on, (mem_nat i l); cbn [negb andb]; rewrite ?in_app_iff, ?remove_nat_In by exact Hn; cbn [In];
      destruct (Nat.eqb_spec k i) as [->|Hne]; intuition congruence.
Qed.

(* running clock owners: children own no clock (cfg_ok), so a power event changes this for transceiver i alone *)
Definition clocked (w : world) (k : nat) : Prop := exists t, nth_error (w_trx w) k = Some t /\ x_run t = true /\ c_clock (x_cfg t) = true.

Lemma clocked_power w i on t : cfg_ok w -> nth_error (w_trx w) i = Some t -> forall k,
  clocked (power_event w i on) k <-> if Nat.eqb k i && c_clock (x_cfg t) then on = true else clocked w k.
Proof.
  intros Hc Et k. unfold clocked. rewrite (power_event_nth w i on t k Et).
  assert (Ef : forall u, x_run (power_one on u) = on /\ x_cfg (power_one on u) = x_cfg u) by (intros u; split; apply power_one_fields).
  unfold affected, mem_nat. destruct (Nat.eqb_spec k i) as [->|Hne]; cbn [andb].
  - replace (existsb _ _) with true by (destruct (c_mgt (x_cfg t) && _); cbn [existsb]; rewrite Nat.eqb_refl; reflexivity).
    rewrite Et. cbn [option_map]. destruct (Ef t) as [Er Ec]. destruct (c_clock (x_cfg t)) eqn:Eck.
    + split; [intros [u [E [Hr _]]]; injection E as <-; congruence|intros ->; eexists; split; [reflexivity|split; congruence]].
    + split; intros [u [E [_ Hck]]]; injection E as <-; congruence.
  - destruct (existsb _ _) eqn:Em; [|reflexivity].
    assert (Hin : In k (c_children (x_cfg t))).
    { destruct (c_mgt (x_cfg t) && _); cbn [existsb] in Em; rewrite (proj2 (Nat.eqb_neq k i) Hne) in Em; [|discriminate]. apply mem_nat_In, Em. }
    destruct (nth_error (w_trx w) k) as [u0|] eqn:Ek; [|split; intros [u [E _]]; discriminate].
    destruct (Hc i t k u0 Et Hin Ek) as [Hcl _]. destruct (Ef u0) as [_ Ec].
    split; intros [u [E [_ Hck]]]; injection E as <-; congruence.
Qed.

Lemma links_inv_power w i on : cfg_ok w -> links_inv w -> links_inv (power_event w i on).
Proof.
  intros Hc H. destruct (nth_error (w_trx w) i) as [t|] eqn:Et; [|unfold power_event; rewrite Et; exact H].
  destruct H as [Hn [Hl Hg]]. destruct (power_event_links w i on t Et) as [El Eg]. pose proof (clocked_power w i on t Hc Et) as Hk. unfold clocked in Hk.
  unfold links_inv. rewrite Eg, El. destruct (c_clock (x_cfg t)).
  - destruct (links_update i on (w_links w) Hn) as [Hn' Hl']. split; [exact Hn'|]. split; [|reflexivity].
    intros k. rewrite Hl', Hk, andb_true_r. destruct (Nat.eqb k i); [reflexivity|apply Hl].
  - split; [exact Hn|]. split; [|exact Hg]. intros k. rewrite Hk, andb_false_r. apply Hl.
Qed.

Definition clock_inv (w : world) : Prop :=
  NoDup (w_links w) /\
  (forall k, In k (w_links w) <-> exists t, nth_error (w_trx w) k = Some t /\ x_run t = true /\ c_clock (x_cfg t) = true) /\
  (forall k t, nth_error (w_trx w) k = Some t -> c_clock (x_cfg t) = true -> True) /\
  True.
