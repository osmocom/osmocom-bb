(* C17, non-vacuity: a v2 Rx PDU (8-PSK) with a NOPE sub-PDU and a GMSK access-burst sub-PDU. *)
From Coq Require Import ZArith List Lia.
From OBB Require Import Gen.TrxdProto Model.Codec Proofs.TrxdProtoMsg Proofs.TrxdProtoTop.
Import ListNotations.
Open Scope Z_scope.

Definition ex_sub1 : rxsub := {| s_tn := 3; s_batch := 1; s_shadow := 0; s_trxn := 5; s_nope := 1; s_mod := 0; s_tsc := 0;
                                 s_rssi := -90; s_toa := -1; s_cir := 100; s_bits := [] |}.
Definition ex_sub2 : rxsub := {| s_tn := 4; s_batch := 0; s_shadow := 1; s_trxn := 63; s_nope := 0; s_mod := 6; s_tsc := 7;
                                 s_rssi := -47; s_toa := 32767; s_cir := -1280; s_bits := repeat 127 148 |}.
Definition ex_rx2 : rx2 := {| m_tn := 7; m_batch := 1; m_trxn := 1; m_nope := 0; m_mod := 4; m_tsc := 2; m_rssi := -120; m_toa := -32768; m_cir := 1280;
                              m_fn := 2715647; m_bits := repeat 0 444; m_subs := [ex_sub1; ex_sub2] |}.
Lemma ex_rx2_ok : rx2_ok ex_rx2 /\ length (rx2_layout ex_rx2) = 620%nat.
Proof.
  split; [|reflexivity]. unfold rx2_ok, ex_rx2. cbn [m_tn m_batch m_trxn m_nope m_mod m_tsc m_rssi m_toa m_cir m_fn m_bits m_subs].
  repeat (split; [lia|]). split; [left; split; reflexivity|].
  constructor; [|constructor; [|constructor]]; unfold rxsub_ok, ex_sub1, ex_sub2; cbn [s_tn s_batch s_shadow s_trxn s_nope s_mod s_tsc s_rssi s_toa s_cir s_bits];
    repeat (split; [lia|]); [right; split; reflexivity|left; split; reflexivity].
Qed.
Lemma ex_rx2_accepts : accepts pdu_v2_rx (rx2_fields ex_rx2) (rx2_layout ex_rx2).
Proof. apply rx2_accepts, ex_rx2_ok. Qed.
