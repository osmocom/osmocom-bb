(* Lemmas about Model/MobAlloc.v (C20).  Spine: gen_f_ok (loop 2) and pick_picked / pick_ok (loop 3) give decode_pointwise, and from it
   decode_spec, the exact state after the call: the one statement the caller files use, with decode_long for more than 8 octets
   and decode_total (in bounds, table sizes kept) derived from both.  upfrom / tbl_upfrom serve the concrete runs at the end. *)
From Coq Require Import ZArith List Bool Lia ZifyBool FinFun.
From OBB Require Import Base.Lists Base.Range Gen.MobAllocConst Model.MobAlloc.
Import ListNotations.
Open Scope Z_scope.

Lemma constants : c_FREQ_TYPE_SERV = 1 /\ c_FREQ_TYPE_HOPP = 2 /\ c_FREQ_TABLE_SIZE = 1024 /\ c_HOPPING_SIZE = 64 /\
                  c_EINVAL = 22 /\ c_FREQ_ENTRY_SIZE = 1 /\ c_F_CAPACITY = 64.
Proof. repeat split; reflexivity. Qed.

Lemma Zlength_app {A : Type} (l1 l2 : list A) : Zlength (l1 ++ l2) = Zlength l1 + Zlength l2.
Proof. rewrite !Zlength_correct, app_length. lia. Qed.

Lemma Zlength_map {A B : Type} (g : A -> B) l : Zlength (map g l) = Zlength l.
Proof. rewrite !Zlength_correct, map_length. reflexivity. Qed.

Lemma Zlength_nonneg {A : Type} (l : list A) : 0 <= Zlength l.
Proof. rewrite Zlength_correct. lia. Qed.

Lemma Zlength_range a b : Zlength (range a b) = Z.max 0 (b - a).
Proof. unfold range. rewrite Zlength_correct, map_length, seq_length. lia. Qed.

Lemma range_nil a b : b <= a -> range a b = [].
Proof. intros H. unfold range. replace (Z.to_nat (b - a)) with 0%nat by lia. reflexivity. Qed.

Lemma range_snoc a b : a <= b -> range a (b + 1) = range a b ++ [b].
Proof. intros H. unfold range. replace (Z.to_nat (b + 1 - a)) with (S (Z.to_nat (b - a))) by lia.
  rewrite seq_S, map_app. cbn [map]. repeat f_equal. lia. Qed.

Lemma map_id_in (g : Z -> Z) l : (forall x, In x l -> g x = x) -> map g l = l.
Proof. intros H. rewrite <- (map_id l) at 2. apply map_ext_in, H. Qed.

Lemma range_NoDup a b : NoDup (range a b).
Proof. unfold range. apply FinFun.Injective_map_NoDup; [|apply seq_NoDup]. intros x y H. lia. Qed.

Lemma zn_cons x t i : 0 <= i -> zn (x :: t) (1 + i) = zn t i.
Proof. intros H. unfold zn. replace (Z.to_nat (1 + i)) with (S (Z.to_nat i)) by lia. reflexivity. Qed.

Lemma map_zn_tail x t : map (zn (x :: t)) (range 1 (1 + Zlength t)) = t.
Proof. unfold range. rewrite map_map. replace (Z.to_nat (1 + Zlength t - 1)) with (length t) by (rewrite Zlength_correct; lia).
  rewrite <- (map_nth_seq t 0) at 2. apply map_ext. intros k. rewrite zn_cons by lia. unfold zn. f_equal. lia. Qed.

Lemma zn_In l i : 0 <= i < Zlength l -> In (zn l i) l.
Proof. intros H. unfold zn. apply nth_In. rewrite Zlength_correct in H. lia. Qed.

Lemma zn_firstn l n i : 0 <= i < n -> zn (firstn (Z.to_nat n) l) i = zn l i.
Proof. intros H. unfold zn. rewrite <- !nth_default_eq. unfold nth_default. rewrite nth_error_firstn by lia. reflexivity. Qed.

Lemma Zlength_firstn (l : list Z) n : 0 <= n -> Zlength (firstn (Z.to_nat n) l) = Z.min n (Zlength l).
Proof. intros H. rewrite !Zlength_correct, firstn_length. lia. Qed.

Lemma rd_ok l i : 0 <= i < Zlength l -> rd l i = Some (zn l i).
Proof. intros H. unfold rd, zn. replace (i <? 0) with false by lia. rewrite Zlength_correct in H.
  apply nth_error_nth'. lia. Qed.

Lemma upd_nat_ok l : forall n v, (n < length l)%nat ->
  exists l', upd_nat l n v = Some l' /\ length l' = length l /\
             forall k d, nth k l' d = if Nat.eqb k n then v else nth k l d.
Proof. induction l as [|x l IH]; intros n v Hn; cbn [length] in Hn; [lia|]. destruct n as [|n]; cbn [upd_nat].
  - exists (v :: l). repeat split. intros [|k] d; reflexivity.
  - destruct (IH n v ltac:(lia)) as (l' & E & Hl & Hk). rewrite E. exists (x :: l'). cbn [option_map length]. repeat split; [lia|].
    intros [|k] d; [reflexivity|]. cbn [nth Nat.eqb]. apply Hk. Qed.

Lemma wr_ok l i v : 0 <= i < Zlength l ->
  exists l', wr l i v = Some l' /\ Zlength l' = Zlength l /\ forall k, 0 <= k -> zn l' k = if k =? i then v else zn l k.
Proof. intros H. unfold wr. replace (i <? 0) with false by lia. rewrite Zlength_correct in H.
  destruct (upd_nat_ok l (Z.to_nat i) v ltac:(lia)) as (l' & E & Hl & Hk). exists l'. repeat split; [exact E|rewrite !Zlength_correct; lia|].
  intros k Hk0. unfold zn. rewrite Hk. destruct (k =? i) eqn:Eki.
  - replace (Z.to_nat k =? Z.to_nat i)%nat with true; [reflexivity|]. symmetry. apply Nat.eqb_eq. f_equal. lia.
  - replace (Z.to_nat k =? Z.to_nat i)%nat with false; [reflexivity|]. symmetry. apply Nat.eqb_neq. lia. Qed.

Lemma land_pow2 b k : 0 <= k -> Z.land b (2 ^ k) = if Z.testbit b k then 2 ^ k else 0.
Proof. intros Hk. apply Z.bits_inj'. intros n Hn. rewrite Z.land_spec, Z.pow2_bits_eqb by exact Hk.
  destruct (Z.eqb_spec k n) as [->|Hne].
  - destruct (Z.testbit b n); [rewrite Z.pow2_bits_eqb, Z.eqb_refl by exact Hn; reflexivity|rewrite Z.bits_0; reflexivity].
  - rewrite andb_false_r. destruct (Z.testbit b k); [rewrite Z.pow2_bits_eqb by exact Hk; symmetry; apply Z.eqb_neq, Hne|rewrite Z.bits_0; reflexivity]. Qed.

Lemma bit_test b i : 0 <= i -> negb (Z.land b (Z.shiftl 1 (Z.land i 7)) =? 0) = Z.testbit b (i mod 8).
Proof. intros Hi. change 7 with (Z.ones 3). rewrite Z.land_ones by lia. change (2 ^ 3) with 8. pose proof (Z.mod_pos_bound i 8 eq_refl).
  rewrite Z.shiftl_1_l, land_pow2 by lia. destruct (Z.testbit b (i mod 8)); [|reflexivity].
  assert (0 < 2 ^ (i mod 8)) by (apply Z.pow_pos_nonneg; lia). lia. Qed.

Lemma testbit_add_pow2 a k : 0 <= k -> 0 <= a < 2 ^ k -> Z.testbit (a + 2 ^ k) k = true.
Proof. intros Hk Ha. apply Z.testbit_true; [exact Hk|]. replace (a + 2 ^ k) with (a + 1 * 2 ^ k) by lia.
  rewrite Z.div_add, Z.div_small by lia. reflexivity. Qed.

Lemma is_serv_testbit m : is_serv m = Z.testbit m 0.
Proof. unfold is_serv, c_FREQ_TYPE_SERV. change 1 with (2 ^ 0). rewrite land_pow2 by lia. destruct (Z.testbit m 0); reflexivity. Qed.

(* the uint8_t truncation is & 0xff, so the flag operations are masks with literal constants *)
Lemma u8_land m : u8 m = Z.land m 255.
Proof. unfold u8. change 255 with (Z.ones 8). rewrite Z.land_ones by lia. reflexivity. Qed.

Lemma u8_clr m f : u8 (Z.land m (Z.lnot f)) = Z.land m (Z.land (Z.lnot f) 255).
Proof. rewrite u8_land, Z.land_assoc. reflexivity. Qed.

Lemma u8_set m f : u8 (Z.lor m f) = Z.lor (u8 m) (u8 f).
Proof. rewrite !u8_land. apply Z.land_lor_distr_l. Qed.

Lemma is_serv_clr m : is_serv (clr_hopp m) = is_serv m.
Proof. unfold is_serv, clr_hopp. rewrite u8_clr, <- Z.land_assoc. reflexivity. Qed.

Lemma set_hopp_idem m : set_hopp (set_hopp m) = set_hopp m.
Proof. unfold set_hopp. rewrite (u8_set (u8 _)), !u8_set, !u8_land, <- !Z.land_assoc, <- Z.lor_assoc. reflexivity. Qed.

(* for an octet m the two flag operations are Z.land m 253 / Z.lor m 2, the form c20_flags states *)
Lemma clr_hopp_lit m : clr_hopp m = Z.land m 253.
Proof. exact (u8_clr m 2). Qed.

Lemma set_clr_hopp_lit m : 0 <= m < 256 -> set_hopp (clr_hopp m) = Z.lor m 2.
Proof. intros H. rewrite clr_hopp_lit. unfold set_hopp, c_FREQ_TYPE_HOPP. rewrite u8_set, u8_land, <- Z.land_assoc. change (Z.land 253 255) with 253.
  rewrite Z.lor_land_distr_l. change (Z.lor 253 (u8 2)) with 255. rewrite <- u8_land, u8_set.
  unfold u8 at 1. rewrite Z.mod_small by lia. reflexivity. Qed.

Definition servl (l : list (Z * Z)) : list Z := map fst (filter (fun p => is_serv (snd p)) l).

(* cap is len << 3, the bound of the break, not the capacity fcap *)
Lemma gen_f_ok fcap cap : 0 < cap <= fcap -> forall l f, Zlength f < cap ->
  gen_f fcap cap l f (Zlength f) = Some (firstn (Z.to_nat cap) (f ++ servl l), Z.min cap (Zlength (f ++ servl l))).
Proof. intros Hc. induction l as [|[a m] r IH]; intros f Hf; cbn [gen_f].
  - unfold servl. cbn [filter map]. rewrite app_nil_r, firstn_all2 by (rewrite Zlength_correct in Hf; lia). f_equal. f_equal. lia.
  - unfold servl. cbn [filter snd]. destruct (is_serv m) eqn:Es.
    + cbn [map fst]. fold (servl r). replace (Zlength f <? fcap) with true by lia.
      replace (f ++ a :: servl r) with ((f ++ [a]) ++ servl r) by (rewrite <- app_assoc; reflexivity).
      assert (Hl : Zlength (f ++ [a]) = Zlength f + 1) by (rewrite Zlength_app, Zlength_cons, Zlength_nil; lia).
      destruct (Zlength f + 1 =? cap) eqn:E.
      * assert (Hc' : Z.to_nat cap = length (f ++ [a])) by (rewrite !Zlength_correct in *; lia).
        rewrite Hc', firstn_app_len by reflexivity. f_equal. f_equal. rewrite Zlength_app. pose proof (Zlength_nonneg (servl r)). lia.
      * rewrite <- Hl. apply IH. lia.
    + fold (servl r). apply IH, Hf. Qed.

Lemma gen_f_start fcap cap l : 0 < cap <= fcap ->
  gen_f fcap cap l [] 0 = Some (firstn (Z.to_nat cap) (servl l), Z.min cap (Zlength (servl l))).
Proof. intros Hc. apply (gen_f_ok fcap cap Hc l []), Hc. Qed.

(* i & 1023 = i for i = 1 .. 1023, and 1024 & 1023 = 0 *)
Lemma order_eq : order = range 1 1024 ++ [0].
Proof. unfold order. change 1025 with (1024 + 1). rewrite range_snoc, map_app by lia.
  apply (f_equal (fun l => l ++ [0])), map_id_in. intros i Hi. apply range_in in Hi.
  change 1023 with (Z.ones 10). rewrite Z.land_ones by lia. apply Z.mod_small. lia. Qed.

Lemma servl_combine (g : Z -> Z) l : servl (combine l (map g l)) = filter (fun a => is_serv (g a)) l.
Proof. unfold servl. induction l as [|a l IH]; [reflexivity|]. cbn [map combine filter snd].
  destruct (is_serv (g a)); cbn [map fst]; rewrite IH; reflexivity. Qed.

Lemma combine_map (g : Z -> Z) l : combine l (map g l) = map (fun a => (a, g a)) l.
Proof. induction l as [|a l IH]; [reflexivity|]. cbn [map combine]. rewrite IH. reflexivity. Qed.

Lemma visit_eq fr : Zlength fr = 1024 -> visit fr = combine order (map (zn fr) order).
Proof. intros Hl. unfold visit. rewrite firstn_all2 by (rewrite Zlength_correct in Hl; lia).
  destruct fr as [|x t]; [discriminate Hl|]. rewrite Zlength_cons in Hl. cbn [skipn firstn].
  f_equal. rewrite order_eq, map_app. replace 1024 with (1 + Zlength t) by lia. rewrite map_zn_tail. reflexivity. Qed.

Lemma tabula_rasa_eq fr : Zlength fr = 1024 -> tabula_rasa fr = map clr_hopp fr.
Proof. intros Hl. unfold tabula_rasa. rewrite Zlength_correct in Hl. rewrite firstn_all2, skipn_all2 by lia. apply app_nil_r. Qed.

Lemma zn_map_clr fr a : zn (map clr_hopp fr) a = clr_hopp (zn fr a).
Proof. unfold zn. change 0 with (clr_hopp 0) at 1. apply map_nth. Qed.

Lemma serving_is_serv fr a : serving fr a = is_serv (zn fr a).
Proof. reflexivity. Qed.

Lemma servl_visit fr : Zlength fr = 1024 -> servl (visit fr) = cell_alloc fr.
Proof. intros Hl. rewrite visit_eq by exact Hl. rewrite servl_combine, order_eq. reflexivity. Qed.

Lemma servl_visit_tr fr : Zlength fr = 1024 -> servl (visit (map clr_hopp fr)) = cell_alloc fr.
Proof. intros Hl. rewrite visit_eq by (rewrite Zlength_map; exact Hl).
  rewrite servl_combine, order_eq. unfold cell_alloc. apply filter_ext. intros a.
  rewrite zn_map_clr, is_serv_clr. reflexivity. Qed.

Lemma cell_alloc_In fr a : In a (cell_alloc fr) -> 0 <= a < 1024 /\ serving fr a = true.
Proof. unfold cell_alloc. intros H. apply filter_In in H as [H Hs]. split; [|exact Hs].
  apply in_app_or in H as [H|[<-|[]]]; [apply range_in in H|]; lia. Qed.

Lemma cell_alloc_ext fr (p : Z -> bool) : (forall a, 0 <= a < 1024 -> serving fr a = p a) ->
  cell_alloc fr = filter p (upfrom 1 1023 ++ [0]).
Proof. intros H. change 1023%nat with (Z.to_nat (1024 - 1)). rewrite <- range_upfrom. apply filter_ext_in. intros a Ha. apply H.
  apply in_app_or in Ha as [Ha|[<-|[]]]; [apply range_in in Ha|]; lia. Qed.

Lemma cell_alloc_NoDup fr : NoDup (cell_alloc fr).
Proof. unfold cell_alloc. apply NoDup_filter, NoDup_app_intro; [apply range_NoDup|repeat constructor; intros []|].
  intros x Hx [<-|[]]. apply range_in in Hx. lia. Qed.

Lemma zn_cons0 x t : zn (x :: t) 0 = x.
Proof. reflexivity. Qed.

Lemma has_cons a l x : has (a :: l) x = (x =? a) || has l x.
Proof. reflexivity. Qed.

Lemma ma_bit_model ma len i : 0 <= i ->
  negb (Z.land (zn ma (len - 1 - Z.shiftr i 3)) (Z.shiftl 1 (Z.land i 7)) =? 0) = ma_bit ma len i.
Proof. intros Hi. rewrite bit_test by exact Hi. unfold ma_bit. rewrite Z.shiftr_div_pow2 by lia. reflexivity. Qed.

(* spec_hopping over the local array f instead of cell_alloc; equal to it for f = firstn (8 * len) (cell_alloc freq), by cut_firstn *)
Definition selr (ma : list Z) (len : Z) (f is : list Z) : list Z :=
  map (zn f) (cut (Zlength f) (filter (ma_bit ma len) is)).

(* the loop invariant: s' is s after the channels sel were stored in hopping[] from hopp_len on and, for SI4, flagged in the table *)
Definition picked (si4 : bool) (sel : list Z) (s s' : st) : Prop :=
  s_hlen s' = s_hlen s + Zlength sel /\
  Zlength (s_hop s') = Zlength (s_hop s) /\ Zlength (s_freq s') = Zlength (s_freq s) /\
  (forall k, 0 <= k -> zn (s_hop s') k =
     if (s_hlen s <=? k) && (k <? s_hlen s + Zlength sel) then zn sel (k - s_hlen s) else zn (s_hop s) k) /\
  (forall a, 0 <= a -> zn (s_freq s') a = if si4 && has sel a then set_hopp (zn (s_freq s) a) else zn (s_freq s) a).

Lemma picked_nil si4 s : picked si4 [] s s.
Proof. unfold picked. rewrite Zlength_nil. repeat split; [lia| |].
  - intros k Hk. replace ((s_hlen s <=? k) && (k <? s_hlen s + 0)) with false by lia. reflexivity.
  - intros a Ha. rewrite andb_false_r. reflexivity. Qed.

(* one iteration that stores a: hop1 / fr1 are the two arrays after the checked writes *)
Lemma picked_cons si4 a sel s fr1 hop1 s' : 0 <= s_hlen s ->
  Zlength hop1 = Zlength (s_hop s) -> (forall k, 0 <= k -> zn hop1 k = if k =? s_hlen s then a else zn (s_hop s) k) ->
  Zlength fr1 = Zlength (s_freq s) ->
  (forall k, 0 <= k -> zn fr1 k = if si4 && (k =? a) then set_hopp (zn (s_freq s) k) else zn (s_freq s) k) ->
  picked si4 sel (mkst fr1 hop1 (s_hlen s + 1)) s' -> picked si4 (a :: sel) s s'.
Proof. intros Hh0 Hl1 Hk1 Hlf Hkf (H1 & H2 & H3 & H4 & H5). cbn [s_freq s_hop s_hlen] in *. pose proof (Zlength_nonneg sel) as Hs0.
  unfold picked. rewrite Zlength_cons. repeat split; try lia.
  - intros k Hk. rewrite H4, Hk1 by exact Hk. destruct (Z.eq_dec k (s_hlen s)) as [->|Hne].
    + rewrite Z.sub_diag, Z.eqb_refl.
      replace ((s_hlen s + 1 <=? s_hlen s) && (s_hlen s <? s_hlen s + 1 + Zlength sel)) with false by lia.
      replace ((s_hlen s <=? s_hlen s) && (s_hlen s <? s_hlen s + Z.succ (Zlength sel))) with true by lia. reflexivity.
    + replace (k =? s_hlen s) with false by lia. destruct ((s_hlen s + 1 <=? k) && (k <? s_hlen s + 1 + Zlength sel)) eqn:Ec.
      * replace ((s_hlen s <=? k) && (k <? s_hlen s + Z.succ (Zlength sel))) with true by lia.
        replace (k - s_hlen s) with (1 + (k - (s_hlen s + 1))) by lia. rewrite zn_cons by lia. reflexivity.
      * replace ((s_hlen s <=? k) && (k <? s_hlen s + Z.succ (Zlength sel))) with false by lia. reflexivity.
  - intros k Hk. rewrite H5, Hkf by exact Hk. rewrite has_cons. destruct si4; [|reflexivity]. cbn [andb].
    destruct (k =? a); cbn [orb]; [|reflexivity]. destruct (has sel k); [apply set_hopp_idem|reflexivity]. Qed.

Lemma pick_picked ma len fcap f si4 : len <= Zlength ma -> Zlength f <= 8 * len -> 8 * len <= fcap ->
  forall is s,
    Forall (fun i => 0 <= i < 8 * len) is ->
    Forall (fun a => 0 <= a < Zlength (s_freq s)) f ->
    0 <= s_hlen s -> s_hlen s + Zlength is <= Zlength (s_hop s) -> s_hlen s + Zlength is < 256 ->
    exists s', pick ma len fcap f (Zlength f) si4 is s = Some s' /\ picked si4 (selr ma len f is) s s'.
Proof. intros Hma Hfl Hfc. induction is as [|i r IH]; intros s His Hfr Hh0 Hh1 Hh2.
  - exists s. split; [reflexivity|apply picked_nil].
  - apply Forall_cons_iff in His as [Hi His]. rewrite Zlength_cons in Hh1, Hh2. pose proof (Zlength_nonneg r) as Hr0.
    cbn [pick]. rewrite rd_ok by (rewrite Z.shiftr_div_pow2 by lia; change (2 ^ 3) with 8; Z.div_mod_to_equations; lia).
    rewrite ma_bit_model by lia. unfold selr. cbn [filter]. destruct (ma_bit ma len i) eqn:Eb; [|apply IH; auto; lia].
    replace (fcap <=? i) with false by lia. cbn [cut]. destruct (Zlength f <=? i) eqn:Ej.
    { replace (i <? Zlength f) with false by lia. exists s. split; [reflexivity|apply picked_nil]. }
    replace (i <? Zlength f) with true by lia. cbn [map]. fold (selr ma len f r). rewrite rd_ok by lia.
    assert (Ha : 0 <= zn f i < Zlength (s_freq s)) by (rewrite Forall_forall in Hfr; apply Hfr, zn_In; lia).
    destruct (wr_ok (s_hop s) (s_hlen s) (zn f i) ltac:(lia)) as (hop1 & -> & Hl1 & Hk1).
    replace (u8 (s_hlen s + 1)) with (s_hlen s + 1) by (symmetry; apply Z.mod_small; lia). destruct si4.
    + rewrite rd_ok by exact Ha.
      destruct (wr_ok (s_freq s) (zn f i) (set_hopp (zn (s_freq s) (zn f i))) Ha) as (fr1 & -> & Hlf & Hkf).
      destruct (IH (mkst fr1 hop1 (s_hlen s + 1))) as (s' & Ep & P); cbn [s_freq s_hop s_hlen]; auto; try lia.
      { rewrite Hlf. exact Hfr. }
      exists s'. split; [exact Ep|]. apply (picked_cons true _ _ s fr1 hop1); auto.
      intros k Hk. rewrite Hkf by exact Hk. cbn [andb]. destruct (Z.eqb_spec k (zn f i)) as [->|]; reflexivity.
    + destruct (IH (mkst (s_freq s) hop1 (s_hlen s + 1))) as (s' & Ep & P); cbn [s_freq s_hop s_hlen]; auto; try lia.
      exists s'. split; [exact Ep|]. apply (picked_cons false _ _ s (s_freq s) hop1); auto. Qed.

Lemma pick_ok ma len fcap f si4 : len <= Zlength ma -> Zlength f <= 8 * len -> 8 * len <= fcap ->
  forall is s,
    Forall (fun i => 0 <= i < 8 * len) is ->
    Forall (fun a => 0 <= a < Zlength (s_freq s)) f ->
    0 <= s_hlen s -> s_hlen s + Zlength is <= Zlength (s_hop s) -> s_hlen s + Zlength is < 256 ->
    exists s', pick ma len fcap f (Zlength f) si4 is s = Some s' /\
      s_hlen s' = s_hlen s + Zlength (selr ma len f is) /\
      Zlength (s_hop s') = Zlength (s_hop s) /\ Zlength (s_freq s') = Zlength (s_freq s) /\
      (forall k, 0 <= k -> zn (s_hop s') k =
         if (s_hlen s <=? k) && (k <? s_hlen s + Zlength (selr ma len f is)) then zn (selr ma len f is) (k - s_hlen s) else zn (s_hop s) k) /\
      (forall a, 0 <= a -> zn (s_freq s') a =
         if si4 && has (selr ma len f is) a then set_hopp (zn (s_freq s) a) else zn (s_freq s) a).
Proof. exact (pick_picked ma len fcap f si4). Qed.

Lemma cut_In n bits x : In x (cut n bits) -> In x bits /\ x < n.
Proof. induction bits as [|i r IH]; cbn [cut In]; [tauto|]. destruct (i <? n) eqn:E; cbn [In]; [|tauto].
  intros [<-|H]; [split; [auto|lia]|]. destruct (IH H). auto. Qed.

Lemma cut_NoDup n bits : NoDup bits -> NoDup (cut n bits).
Proof. induction 1 as [|i r Hi Hr IH]; cbn [cut]; [constructor|]. destruct (i <? n); constructor; [|exact IH].
  intros H. apply cut_In in H. tauto. Qed.

Lemma cut_all n bits : Forall (fun i => i < n) bits -> cut n bits = bits.
Proof. induction 1 as [|i r Hi Hr IH]; [reflexivity|]. cbn [cut]. replace (i <? n) with true by lia. rewrite IH. reflexivity. Qed.

Lemma Zlength_cut n bits : Zlength (cut n bits) <= Zlength bits.
Proof. induction bits as [|i r IH]; cbn [cut]; [lia|]. destruct (i <? n); rewrite ?Zlength_cons, ?Zlength_nil; pose proof (Zlength_nonneg r); lia. Qed.

Lemma Zlength_filter (p : Z -> bool) l : Zlength (filter p l) <= Zlength l.
Proof. induction l as [|x l IH]; cbn [filter]; [lia|]. destruct (p x); rewrite ?Zlength_cons; lia. Qed.

Lemma cut_firstn cap ca bits : Forall (fun i => 0 <= i < cap) bits ->
  map (zn (firstn (Z.to_nat cap) ca)) (cut (Z.min cap (Zlength ca)) bits) = map (zn ca) (cut (Zlength ca) bits).
Proof. induction 1 as [|i r Hi Hr IH]; [reflexivity|]. cbn [cut]. destruct (i <? Zlength ca) eqn:E.
  - replace (i <? Z.min cap (Zlength ca)) with true by lia. cbn [map]. rewrite IH, zn_firstn by lia. reflexivity.
  - replace (i <? Z.min cap (Zlength ca)) with false by lia. reflexivity. Qed.

Lemma map_zn_NoDup ca idx : NoDup ca -> NoDup idx -> Forall (fun i => 0 <= i < Zlength ca) idx -> NoDup (map (zn ca) idx).
Proof. intros Hca Hidx. induction Hidx as [|i r Hi Hr IH]; intros Hb; cbn [map]; [constructor|].
  apply Forall_cons_iff in Hb as [Hbi Hbr]. constructor; [|apply IH, Hbr].
  intros H. apply in_map_iff in H as (i' & E & Hi'). rewrite Forall_forall in Hbr. specialize (Hbr i' Hi').
  rewrite Zlength_correct in Hbi, Hbr. unfold zn in E. rewrite NoDup_nth in Hca. apply Hca in E; try lia.
  assert (i' = i) by lia. subst i'. contradiction. Qed.

Lemma spec_props freq ma len : len <= 8 ->
  Zlength (spec_hopping freq ma len) <= 64 /\ NoDup (spec_hopping freq ma len) /\
  forall x, In x (spec_hopping freq ma len) -> In x (cell_alloc freq).
Proof. intros Hlen. unfold spec_hopping. set (ca := cell_alloc freq). set (bits := filter (ma_bit ma len) (range 0 (8 * len))).
  assert (Hb : forall i, In i bits -> 0 <= i < 8 * len).
  { intros i Hi. apply filter_In in Hi as [Hi _]. apply range_in in Hi. lia. }
  split; [|split].
  - rewrite Zlength_map. pose proof (Zlength_cut (Zlength ca) bits). pose proof (Zlength_filter (ma_bit ma len) (range 0 (8 * len))).
    fold bits in H0. rewrite Zlength_range in H0. lia.
  - apply map_zn_NoDup; [apply cell_alloc_NoDup|apply cut_NoDup, NoDup_filter, range_NoDup|].
    apply Forall_forall. intros i Hi. apply cut_In in Hi as [Hi Hn]. specialize (Hb i Hi). lia.
  - intros x Hx. apply in_map_iff in Hx as (i & <- & Hi). apply cut_In in Hi as [Hi Hn]. specialize (Hb i Hi). apply zn_In. lia. Qed.

Lemma shiftl3 len : Z.shiftl len 3 = 8 * len.
Proof. rewrite Z.shiftl_mul_pow2 by lia. change (2 ^ 3) with 8. lia. Qed.

Lemma spec_len0 freq ma : spec_hopping freq ma 0 = [].
Proof. reflexivity. Qed.

(* what loop 3 delivers, from the table after loop 1 and an empty list; decode_spec below is the statement to use *)
Lemma decode_pointwise freq ma len hop hl si4 :
  Zlength freq = 1024 -> 0 <= len <= 8 -> len <= Zlength ma -> 64 <= Zlength hop ->
  exists s, decode freq ma len hop hl si4 = Ok 0 s /\
    picked (negb (si4 =? 0)) (spec_hopping freq ma len) (mkst (if si4 =? 0 then freq else map clr_hopp freq) hop 0) s.
Proof. intros Hfl Hlen Hma Hhop. unfold decode. rewrite shiftl3. replace (8 <? len) with false by lia.
  replace (Zlength freq <? 1024) with false by lia. rewrite andb_false_r.
  assert (Efr : (if negb (si4 =? 0) then tabula_rasa freq else freq) = if si4 =? 0 then freq else map clr_hopp freq).
  { destruct (si4 =? 0); cbn [negb]; [reflexivity|apply tabula_rasa_eq, Hfl]. }
  rewrite Efr. set (fr1 := if si4 =? 0 then freq else map clr_hopp freq).
  assert (Hfl1 : Zlength fr1 = 1024) by (unfold fr1; destruct (si4 =? 0); [|rewrite Zlength_map]; exact Hfl).
  destruct (len =? 0) eqn:E0.
  { assert (len = 0) by lia. subst len. exists (mkst fr1 hop 0). split; [reflexivity|apply picked_nil]. }
  assert (Hca : servl (visit fr1) = cell_alloc freq).
  { unfold fr1. destruct (si4 =? 0); [apply servl_visit|apply servl_visit_tr]; exact Hfl. }
  rewrite gen_f_start, Hca by (unfold c_F_CAPACITY; lia).
  set (ca := cell_alloc freq). set (f := firstn (Z.to_nat (8 * len)) ca).
  assert (Hf : Zlength f = Z.min (8 * len) (Zlength ca)) by (apply Zlength_firstn; lia). rewrite <- Hf.
  destruct (pick_picked ma len c_F_CAPACITY f (negb (si4 =? 0)) Hma ltac:(lia) ltac:(unfold c_F_CAPACITY; lia) (range 0 (8 * len)) (mkst fr1 hop 0))
    as (s & -> & P); cbn [s_freq s_hop s_hlen].
  { apply Forall_forall. intros i Hi. apply range_in in Hi. lia. }
  { apply Forall_forall. intros a Ha. apply In_firstn, cell_alloc_In in Ha. lia. }
  { lia. } { rewrite Zlength_range. lia. } { rewrite Zlength_range. lia. }
  exists s. split; [reflexivity|]. replace (spec_hopping freq ma len) with (selr ma len f (range 0 (8 * len))); [exact P|].
  unfold selr, spec_hopping. rewrite Hf. apply cut_firstn. apply Forall_forall. intros i Hi. apply filter_In in Hi as [Hi _]. apply range_in in Hi. lia. Qed.

Lemma list_eq_zn (a b : list Z) : Zlength a = Zlength b -> (forall k, 0 <= k < Zlength a -> zn a k = zn b k) -> a = b.
Proof. intros Hl Hk. rewrite !Zlength_correct in Hl. apply (nth_ext _ _ 0 0); [lia|]. intros n Hn.
  specialize (Hk (Z.of_nat n) ltac:(rewrite Zlength_correct; lia)). unfold zn in Hk. rewrite Nat2Z.id in Hk. exact Hk. Qed.

Lemma zn_map_range (g : Z -> Z) n k : 0 <= k < n -> zn (map g (range 0 n)) k = g k.
Proof. intros Hk. unfold zn, range. rewrite map_map.
  rewrite (nth_indep _ 0 (g (0 + Z.of_nat 0))) by (rewrite map_length, seq_length; lia).
  rewrite (map_nth (fun i => g (0 + Z.of_nat i))), seq_nth by lia. f_equal. lia. Qed.

Lemma pointwise_app sel hop hop' : Zlength hop' = Zlength hop -> Zlength sel <= Zlength hop ->
  (forall k, 0 <= k -> zn hop' k = if k <? Zlength sel then zn sel k else zn hop k) ->
  hop' = sel ++ skipn (length sel) hop.
Proof. intros Hl Hs Hk. rewrite !Zlength_correct in Hl, Hs. apply (nth_ext _ _ 0 0).
  - rewrite app_length, skipn_length. lia.
  - intros n Hn. specialize (Hk (Z.of_nat n) ltac:(lia)). unfold zn in Hk. rewrite Nat2Z.id in Hk. rewrite Hk.
    rewrite Zlength_correct. destruct (Z.of_nat n <? Z.of_nat (length sel)) eqn:E.
    + rewrite app_nth1 by lia. reflexivity.
    + rewrite app_nth2 by lia. rewrite <- !nth_default_eq. unfold nth_default. rewrite nth_error_skipn.
      replace (length sel + (n - length sel))%nat with n by lia. reflexivity. Qed.

(* what the call does, for every table and every bitmap of 0..8 octets: return code 0; hopping[] receives the specified list, the
   entries behind it are untouched; with si4 the table has FREQ_TYPE_HOPP set on the listed channels and cleared everywhere else *)
Theorem decode_spec freq ma len hop hl si4 :
  Zlength freq = 1024 -> 0 <= len <= 8 -> len <= Zlength ma -> 64 <= Zlength hop ->
  decode freq ma len hop hl si4 =
    Ok 0 (mkst (if si4 =? 0 then freq
                else map (fun a => if has (spec_hopping freq ma len) a then set_hopp (clr_hopp (zn freq a)) else clr_hopp (zn freq a))
                         (range 0 1024))
               (spec_hopping freq ma len ++ skipn (length (spec_hopping freq ma len)) hop)
               (Zlength (spec_hopping freq ma len))).
Proof. intros Hfl Hlen Hma Hhop.
  destruct (decode_pointwise freq ma len hop hl si4 Hfl Hlen Hma Hhop) as ([fr' hop' hl'] & -> & H1 & H2 & H3 & H4 & H5).
  cbn [s_freq s_hop s_hlen] in *. rewrite !Z.add_0_l in *. destruct (spec_props freq ma len ltac:(lia)) as (Hb & _). f_equal. f_equal; [| |exact H1].
  - destruct (si4 =? 0); cbn [negb andb] in *; apply list_eq_zn.
    + exact H3.
    + intros k Hk. apply H5. lia.
    + rewrite H3, !Zlength_map, Zlength_range. lia.
    + intros k Hk. rewrite H3, Zlength_map in Hk. rewrite H5, zn_map_range, zn_map_clr by lia. reflexivity.
  - apply pointwise_app; [exact H2|lia|]. intros k Hk. rewrite H4 by exact Hk. replace (0 <=? k) with true by lia.
    rewrite Z.sub_0_r. reflexivity. Qed.

(* [injection] would normalise the 1024-entry table of decode_spec *)
Lemma Ok_inj rc s rc' s' : Ok rc s = Ok rc' s' -> rc = rc' /\ s = s'.
Proof. intros E. injection E as -> ->. split; reflexivity. Qed.

Lemma firstn_app_exact {A} (l x : list A) : firstn (Z.to_nat (Zlength l)) (l ++ x) = l.
Proof. apply firstn_app_len. rewrite Zlength_correct. apply Nat2Z.id. Qed.

Lemma decode_long freq ma len hop hl si4 : 8 < len ->
  decode freq ma len hop hl si4 = Ok (-22) (mkst freq hop hl).
Proof. intros H. unfold decode. replace (8 <? len) with true by lia. reflexivity. Qed.

(* the contract the callers rely on: with tables of the right size, and the bitmap octets present when the length is accepted,
   every length octet is answered without leaving a buffer, and the tables keep their sizes *)
Lemma decode_total freq ma len hop hl si4 :
  Zlength freq = 1024 -> Zlength hop = 64 -> 0 <= len <= 255 -> (len <= 8 -> len <= Zlength ma) ->
  exists rc s, decode freq ma len hop hl si4 = Ok rc s /\ Zlength (s_freq s) = 1024 /\ Zlength (s_hop s) = 64.
Proof. intros Hf Hh Hl Hm. destruct (Z_le_gt_dec len 8) as [Hs|Hg].
  - rewrite decode_spec by (try apply Hm; lia). eexists _, _. split; [reflexivity|]. cbn [s_freq s_hop]. split.
    + destruct (si4 =? 0); [exact Hf|]. rewrite Zlength_map, Zlength_range. reflexivity.
    + destruct (spec_props freq ma len Hs) as (Hb & _). rewrite !Zlength_correct in *. rewrite app_length, skipn_length. lia.
  - rewrite decode_long by lia. exists (-22), (mkst freq hop hl). repeat split; assumption. Qed.

Lemma spec_zero_bitmap freq ma len : Forall (fun b => b = 0) ma -> spec_hopping freq ma len = [].
Proof. intros Hz. unfold spec_hopping. replace (filter (ma_bit ma len) (range 0 (8 * len))) with (@nil Z); [reflexivity|].
  symmetry. generalize (range 0 (8 * len)). induction l as [|i r IH]; [reflexivity|]. cbn [filter].
  replace (ma_bit ma len i) with false; [exact IH|]. unfold ma_bit, zn.
  destruct (nth_in_or_default (Z.to_nat (len - 1 - i / 8)) ma 0) as [Hin| ->]; [|rewrite Z.bits_0; reflexivity].
  rewrite Forall_forall in Hz. rewrite (Hz _ Hin), Z.bits_0. reflexivity. Qed.

Lemma decode_len0 freq ma hop hl si4 : Zlength freq = 1024 ->
  decode freq ma 0 hop hl si4 = Ok 0 (mkst (if si4 =? 0 then freq else map (fun m => Z.land m 253) freq) hop 0).
Proof. intros Hfl. unfold decode. change (8 <? 0) with false. cbv iota. replace (Zlength freq <? 1024) with false by lia.
  rewrite andb_false_r. change (0 =? 0) with true. cbv iota. destruct (si4 =? 0); cbn [negb]; [reflexivity|].
  rewrite tabula_rasa_eq by exact Hfl. f_equal. f_equal. apply map_ext, clr_hopp_lit. Qed.

Definition tbl (ca : list Z) (other : Z) : list Z := map (fun a => if has ca a then 1 + other else other) (range 0 1024).
Lemma tbl_upfrom ca o : tbl ca o = map (fun a => if has ca a then 1 + o else o) (upfrom 0 1024).
Proof. unfold tbl. rewrite range_upfrom. reflexivity. Qed.

Lemma tbl_length ca o : Zlength (tbl ca o) = 1024.
Proof. unfold tbl. rewrite Zlength_map, Zlength_range. reflexivity. Qed.

Lemma tbl_octets ca o : 0 <= o < 255 -> Forall (fun m => 0 <= m < 256) (tbl ca o).
Proof. intros Ho. unfold tbl. apply Forall_map, Forall_forall. intros a _. destruct (has ca a); lia. Qed.

Definition obs (r : res) : list Z :=
  match r with Ok rc s => [rc; s_hlen s] ++ firstn 5 (s_hop s) ++ [zn (s_freq s) 0; zn (s_freq s) 10; zn (s_freq s) 30; zn (s_freq s) 40] | OOB => [-998] end.

(* cell allocation {0, 10, 20, 30} = ordered (10, 20, 30, 0); bitmap 0b1011 selects indices 0, 1, 3 = ARFCN 10, 20, 0;
   every entry starts with mask 0x42 (+ 0x01 in the cell allocation): the stale HOPP flags are cleared everywhere, 0x40 stays,
   HOPP is set again on ARFCN 0, 10 (and 20) only *)
Example ex_decode : obs (decode (tbl [0; 10; 20; 30] 66) [11] 1 (repeat 7 64) 9 1) = [0; 3; 10; 20; 0; 7; 7; 67; 67; 65; 64].
Proof. rewrite tbl_upfrom. vm_compute. reflexivity. Qed.
Example ex_hyp : Zlength (tbl [0; 10; 20; 30] 66) = 1024 /\ Zlength (repeat 7 64) = 64 /\ Forall (fun m => 0 <= m < 256) (tbl [0; 10; 20; 30] 66).
Proof. split; [apply tbl_length|]. split; [reflexivity|]. apply tbl_octets. lia. Qed.
(* two octets, the set bit 9 lies in octet 0; bit 4 points beyond the 4 channels and ends decoding before bit 9 is reached *)
Example ex_cut : obs (decode (tbl [0; 10; 20; 30] 0) [2; 19] 2 (repeat 7 64) 9 0) = [0; 2; 10; 20; 7; 7; 7; 1; 1; 1; 0].
Proof. rewrite tbl_upfrom. vm_compute. reflexivity. Qed.
Example ex_two_octets : obs (decode (tbl [0; 10; 20; 30; 40; 50; 60; 70; 80; 90] 0) [2; 5] 2 (repeat 7 64) 9 0) = [0; 3; 10; 30; 0; 7; 7; 1; 1; 1; 1].
Proof. rewrite tbl_upfrom. vm_compute. reflexivity. Qed.
(* len = 0: nothing selected, stale HOPP flags cleared (si4), hopp_len reset *)
Example ex_len0 : obs (decode (tbl [5] 66) [] 0 (repeat 7 64) 9 1) = [0; 0; 7; 7; 7; 7; 7; 64; 64; 64; 64].
Proof. rewrite tbl_upfrom. vm_compute. reflexivity. Qed.
Example ex_long : obs (decode (tbl [5] 0) (repeat 255 9) 9 (repeat 7 64) 9 1) = [-22; 9; 7; 7; 7; 7; 7; 0; 0; 0; 0].
Proof. rewrite tbl_upfrom. vm_compute. reflexivity. Qed.
