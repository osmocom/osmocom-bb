(* Histories of appends and reads on one capture: the state is always the file of everything stored so far, and every
   operation answers as on that file (so the reads of DumpP.v apply after any history). *)
From Coq Require Import ZArith List Lia.
From OBB Require Import Model.Trxd Model.Dump Model.DumpHist Proofs.DumpP.
Import ListNotations.
Open Scope Z_scope.

Lemma appended_app a b : appended (a ++ b) = appended a ++ appended b.
Proof. unfold appended. apply flat_map_app. Qed.

Lemma dstep_valid ms o : Forall vmsg (appended [o]) ->
  fst (dstep (file ms) o) = file (ms ++ appended [o]).
Proof.
  intros H. destruct o as [m|i|s c]; cbn [dstep appended flat_map app fst]; try (rewrite app_nil_r; reflexivity).
  cbn [appended flat_map app] in H. inversion H as [|x l Hm _]; subst.
  unfold append_msg. rewrite (dump_rec m Hm). cbn [bind fst].
  rewrite file_app. unfold file at 3. cbn [map concat]. rewrite app_nil_r. reflexivity.
Qed.

(* the state after any history: the file of the initial messages followed by every appended message, in order *)
Theorem hist_state ops : forall ms0, Forall vmsg (appended ops) ->
  fst (drun (file ms0) ops) = file (ms0 ++ appended ops).
Proof.
  induction ops as [|o ops IH]; intros ms0 H.
  - cbn [drun fst appended flat_map]. rewrite app_nil_r. reflexivity.
  - change (appended (o :: ops)) with (appended ([o] ++ ops)) in H |- *. rewrite appended_app in H |- *. apply Forall_app in H as [Ho Hr]. cbn [drun].
    pose proof (dstep_valid ms0 o Ho) as E. destruct (dstep (file ms0) o) as [f' x]. cbn [fst] in E. subst f'.
    specialize (IH (ms0 ++ appended [o]) Hr). destruct (drun _ ops) as [f'' xs]. cbn [fst] in IH |- *. rewrite IH, app_assoc. reflexivity.
Qed.

Lemma drun_app f a b : drun f (a ++ b) =
  let '(f1, x1) := drun f a in let '(f2, x2) := drun f1 b in (f2, x1 ++ x2).
Proof.
  revert f. induction a as [|o a IH]; intros f.
  - cbn [app drun]. destruct (drun f b); reflexivity.
  - cbn [app drun]. destruct (dstep f o) as [f' x]. rewrite IH. destruct (drun f' a) as [f1 x1]. destruct (drun f1 b) as [f2 x2]. reflexivity.
Qed.

Lemma drun_len f ops : length (snd (drun f ops)) = length ops.
Proof.
  revert f. induction ops as [|o ops IH]; intros f; [reflexivity|]. cbn [drun]. destruct (dstep f o) as [f' x].
  specialize (IH f'). destruct (drun f' ops) as [f'' xs]. cbn [snd length] in *. rewrite IH. reflexivity.
Qed.

(* the answer of the operation that follows the history 'pre' is the answer of that operation on the file of everything stored so far *)
Theorem hist_answer pre o post ms0 : Forall vmsg (appended pre) ->
  nth_error (snd (drun (file ms0) (pre ++ o :: post))) (length pre) = Some (snd (dstep (file (ms0 ++ appended pre)) o)).
Proof.
  intros H. rewrite drun_app. pose proof (hist_state pre ms0 H) as Es. pose proof (drun_len (file ms0) pre) as El.
  destruct (drun (file ms0) pre) as [f1 x1]. cbn [fst snd] in Es, El. subst f1.
  cbn [drun]. destruct (dstep (file (ms0 ++ appended pre)) o) as [f' x]. destruct (drun f' post) as [f2 x2]. cbn [snd].
  rewrite nth_error_app2 by lia. rewrite El, Nat.sub_diag. reflexivity.
Qed.

(* reads change nothing *)
Theorem hist_reads_pure f o : (forall m, o <> DAppend m) -> fst (dstep f o) = f.
Proof. destruct o as [m|i|s c]; intros H; [exfalso; apply (H m); reflexivity|reflexivity|reflexivity]. Qed.

(* non-vacuity: on the example capture (4 stored messages) - read, append, read the appended one by its index, full read *)
Example hist_example :
  exists m, nth_error ex_ms 0 = Some m /\ Forall vmsg (appended [DIndex 0; DAppend m]) /\
    (match nth_error (snd (drun (file ex_ms) ([DIndex 0; DAppend m] ++ DIndex 4 :: [DAll None None]))) 2 with
     | Some (OIndex (Ok (OMsg m'))) => cmsg m' = cmsg m
     | _ => False
     end) /\
    length (fst (drun (file ex_ms) [DIndex 0; DAppend m; DIndex 4])) = (length (file ex_ms) + length (rec_of m))%nat.
Proof.
  destruct (nth_error ex_ms 0) as [m|] eqn:E; [|vm_compute in E; discriminate].
  exists m. vm_compute in E. injection E as <-. split; [reflexivity|]. split.
  - cbn [appended flat_map app]. constructor; [|constructor]. pose proof ex_valid as H. inversion H; assumption.
  - split; vm_compute; reflexivity.
Qed.
