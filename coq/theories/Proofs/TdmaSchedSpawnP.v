(* C08, re-entrant part: callbacks that call tdma_schedule() / tdma_sched_reset() while tdma_sched_execute() runs
   (Model/TdmaSched.v second part: cb_effect, exec_loop, tdma_sched_execute_sp, run_sp).
   - conservative extension: without such callbacks the re-entrant execute IS the execute of the 13 history theorems;
   - no crash / no fuel exhaustion, whatever the callbacks return;
   - the general shape of one call (effects in sorted order, then the items appended to the running frame, then the clear);
   - a same-frame child runs in the very call, a child N frames ahead lands in frame N and does not run, a full frame refuses. *)
From Coq Require Import ZArith List Bool Lia Permutation Sorted ZifyBool.
From OBB Require Import Base.Lists Gen.FwSchedConst Model.TdmaSched Proofs.TdmaSchedSpec Proofs.TdmaSchedSortP Proofs.TdmaSchedP Proofs.TdmaSchedRefP Proofs.TdmaSchedHistP.
Import ListNotations.
Open Scope Z_scope.

(* a callback that does not use the scheduler *)
Definition plain (it : item) : Prop := i_cb it <> 15 /\ i_cb it <> 16.
Definition calls (lg : list xev) : list item :=
  flat_map (fun e => match e with ECall it => [it] | _ => [] end) lg.

Definition lift_x (r : xres) : sxres :=
  match r with
  | XOk st lg ret => SXOk st (map ECall lg) ret
  | XOOB => SXOOB
  | XNull lg => SXNull (map ECall lg)
  end.

Lemma plain_is_spawn it : plain it -> is_spawn (i_cb it) = false.
Proof. intros (H1 & H2). unfold is_spawn, CB_SPAWN, CB_RSPAWN. lia. Qed.

Lemma cb_effect_plain rcf st it : plain it -> cb_effect rcf st it = Ok (st, rcf it, [ECall it]).
Proof.
  intros (H1 & H2). unfold cb_effect, CB_SPAWN, CB_RSPAWN.
  replace (i_cb it =? 15) with false by lia. replace (i_cb it =? 16) with false by lia. reflexivity.
Qed.

(* the callbacks xs invoked one after the other, each on the state its predecessors left: final state and what happened *)
Fixpoint spawn_phase (rcf : item -> Z) (st : sched) (xs : list item) : sched * list xev :=
  match xs with
  | [] => (st, [])
  | it :: r =>
    match cb_effect rcf st it with
    | Ok (st', _, evs) => let '(st2, evs2) := spawn_phase rcf st' r in (st2, evs ++ evs2)
    | _ => (st, [])
    end
  end.

Lemma spawn_phase_cons rcf st it r st1 rc evs : cb_effect rcf st it = Ok (st1, rc, evs) ->
  spawn_phase rcf st (it :: r) = (fst (spawn_phase rcf st1 r), evs ++ snd (spawn_phase rcf st1 r)).
Proof. intros E. cbn [spawn_phase]. rewrite E. destruct (spawn_phase rcf st1 r). reflexivity. Qed.

Lemma calls_app a b : calls (a ++ b) = calls a ++ calls b.
Proof. unfold calls. apply flat_map_app. Qed.

Lemma calls_map_ECall l : calls (map ECall l) = l.
Proof. induction l as [|x r IH]; [reflexivity|]. cbn [map]. change (calls (ECall x :: map ECall r)) with (x :: calls (map ECall r)). rewrite IH. reflexivity. Qed.

Lemma nth_error_nth_lt' {A} (l : list A) n d : (n < length l)%nat -> nth_error l n = Some (nth n l d).
Proof. apply nth_error_nth'. Qed.

Lemma exec_loop_step rcf f sq c st i b k it :
  nth_error (s_bk st) (Z.to_nat c) = Some b -> (i < length b)%nat -> nth_error sq i = Some k -> nth_error b k = Some it ->
  exec_loop rcf (S f) sq c st i =
    if i_cb it =? CB_NULL then SXNull []
    else match cb_effect rcf st it with
         | Ok (st', rc, evs) => if rc <? 0 then SXOk st' evs rc else sx_prepend evs (exec_loop rcf f sq c st' (S i))
         | OOB => SXOOB
         | NullCall => SXNull []
         end.
Proof. intros Hb Hi Hk Hit. apply Nat.ltb_lt in Hi. cbn [exec_loop]. rewrite Hb, Hi, Hk, Hit. reflexivity. Qed.

Lemma exec_loop_exit rcf f sq c st i b : nth_error (s_bk st) (Z.to_nat c) = Some b -> (length b <= i)%nat ->
  exec_loop rcf (S f) sq c st i = SXOk (set_bucket st c []) [] (Z.of_nat i).
Proof. intros Hb Hi. apply Nat.ltb_ge in Hi. cbn [exec_loop]. rewrite Hb, Hi. reflexivity. Qed.

Lemma exec_order_length b : (length b <= 8)%nat -> length (exec_order b) = length b.
Proof. intros H. apply Permutation_length, exec_order_perm, H. Qed.

(* what iteration i fetches through seq[] when the frame that held b at entry has grown by extra: the i-th of the sorted entry items
   followed by extra (seq[] is sorted below length b and the identity above) *)
Lemma seq_fetch b extra i it : (length b <= 8)%nat -> (i < 8)%nat -> nth_error (exec_order b ++ extra) i = Some it ->
  exists k, nth_error (bucket_sort b) i = Some k /\ nth_error (b ++ extra) k = Some it.
Proof.
  intros Hn Hi E. rewrite bucket_sort_ssort, <- slot_order_ssort by exact Hn. rewrite exec_order_slots in E.
  pose proof (Permutation_length (slot_order_perm b Hn)) as HL. rewrite seq_length in HL.
  destruct (lt_dec i (length b)) as [Hlt|Hge].
  - rewrite nth_error_app1 in E |- * by (rewrite ?map_length; lia).
    destruct (nth_error (slot_order b) i) as [k|] eqn:Ek; [|apply nth_error_None in Ek; lia].
    rewrite (map_nth_error _ _ _ Ek) in E. injection E as <-. exists k. split; [reflexivity|].
    assert (Hk : (k < length b)%nat) by (apply nth_error_In, (Permutation_in _ (slot_order_perm b Hn)), in_seq in Ek; lia).
    rewrite nth_error_app1 by exact Hk. apply nth_error_nth'. exact Hk.
  - rewrite nth_error_app2 in E |- * by (rewrite ?map_length; lia). rewrite map_length in E. rewrite HL in *.
    exists i. split; [|rewrite nth_error_app2 by lia; exact E].
    rewrite (nth_error_nth' _ O) by (rewrite seq_length; lia). rewrite seq_nth by lia. f_equal. lia.
Qed.

(* any state, well-formed or not: that is why this is not a case of loop_run below *)
Lemma loop_plain rcf c st b : nth_error (s_bk st) (Z.to_nat c) = Some b -> (length b <= 8)%nat -> Forall plain b ->
  forall xs done fuel, exec_order b = done ++ xs -> (length xs < fuel)%nat ->
  exec_loop rcf fuel (bucket_sort b) c st (length done) =
    match run_items rcf xs with
    | (lg, SDone) => SXOk (set_bucket st c []) (map ECall lg) (Z.of_nat (length done + length lg))
    | (lg, SFail rc) => SXOk st (map ECall lg) rc
    | (lg, SNull) => SXNull (map ECall lg)
    end.
Proof.
  intros Hb Hn Hpl. induction xs as [|it xs IH]; intros done [|f] Ho Hf; cbn [length] in *; try lia;
    pose proof (exec_order_length b Hn) as HL; rewrite Ho, app_length in HL; cbn [length] in HL.
  - rewrite (exec_loop_exit _ _ _ _ _ _ b) by (try assumption; lia). cbn [run_items length]. rewrite Nat.add_0_r. reflexivity.
  - destruct (seq_fetch b [] (length done) it Hn ltac:(lia)) as (k & Ek & Eit); [rewrite app_nil_r, Ho; apply nth_error_mid|].
    rewrite app_nil_r in Eit. rewrite (exec_loop_step _ _ _ _ _ _ b k it) by (try assumption; lia).
    assert (Hit : plain it). { rewrite Forall_forall in Hpl. apply Hpl. eapply nth_error_In. exact Eit. }
    cbn [run_items]. destruct (i_cb it =? CB_NULL); [reflexivity|].
    rewrite (cb_effect_plain rcf st it Hit).
    destruct (rcf it <? 0); [reflexivity|].
    specialize (IH (done ++ [it]) f). rewrite app_length, <- app_assoc in IH. cbn [length app] in IH.
    replace (S (length done)) with (length done + 1)%nat by lia. rewrite IH by (try assumption; lia).
    destruct (run_items rcf xs) as [lg [| rc |]]; cbn [sx_prepend map app length]; [|reflexivity|reflexivity].
    f_equal. lia.
Qed.

Lemma conservative rcf st : Forall plain (bucket_abs st (s_cur st)) ->
  tdma_sched_execute_sp rcf st = lift_x (tdma_sched_execute rcf st).
Proof.
  intros Hpl. unfold tdma_sched_execute_sp, tdma_sched_execute.
  destruct (nth_error (s_bk st) (Z.to_nat (s_cur st))) as [b|] eqn:Hb; [|reflexivity].
  assert (Eb : bucket_abs st (s_cur st) = b) by (unfold bucket_abs; apply nth_error_nth; exact Hb).
  rewrite Eb in Hpl. rewrite ni_eq, ncb_eq.
  destruct ((8 <? Z.of_nat (length b)) || (8 <? Z.of_nat (length b))) eqn:E; [reflexivity|].
  assert (Hn : (length b <= 8)%nat) by lia.
  rewrite (loop_plain rcf (s_cur st) st b Hb Hn Hpl (exec_order b) []); [|reflexivity|rewrite exec_order_length by exact Hn; lia].
  destruct (run_items rcf (exec_order b)) as [lg [| rc |]]; reflexivity.
Qed.

Definition all_st (P : item -> Prop) (st : sched) : Prop := Forall (Forall P) (s_bk st).
Definition all_op (P : item -> Prop) (o : op) : Prop :=
  match o with OSched _ it => P it | OSet _ set _ => Forall P set | _ => True end.
Definition plain_st (st : sched) : Prop := all_st plain st.
Definition lift_obs (b : obs) : obs_sp :=
  match b with BRet r => PRet r | BCur c => PCur c | BExec lg r => PExec (map ECall lg) r | BReset n => PReset n end.

Lemma all_st_abs (P : item -> Prop) st j : all_st P st -> Forall P (bucket_abs st j).
Proof. intros H. unfold bucket_abs. apply Forall_nth_d; [exact H|constructor]. Qed.

Lemma all_st_set_bucket (P : item -> Prop) st j b : all_st P st -> Forall P b -> all_st P (set_bucket st j b).
Proof. intros H Hb. unfold all_st, set_bucket. cbn [s_bk]. apply Forall_upd; assumption. Qed.

Lemma all_st_append (P : item -> Prop) st j n b it : all_st P st -> nth_error (s_bk st) n = Some b -> P it ->
  all_st P (set_bucket st j (b ++ [it])).
Proof.
  intros H E Hi. apply all_st_set_bucket; [exact H|]. apply Forall_app. split; [|constructor; [exact Hi|constructor]].
  unfold all_st in H. rewrite Forall_forall in H. apply H. eapply nth_error_In. exact E.
Qed.

Lemma schedule_all (P : item -> Prop) st off it st' rc : all_st P st -> P it -> tdma_schedule st off it = Ok (st', rc) -> all_st P st'.
Proof.
  intros H Hi E. unfold tdma_schedule in E.
  destruct (nth_error (s_bk st) (Z.to_nat (wrap_bucket (s_cur st) off))) as [b|] eqn:Eb; [|discriminate].
  destruct (c_NITEMS <=? Z.of_nat (length b)); injection E as <- _; [exact H|].
  eapply all_st_append; eassumption.
Qed.

Lemma sched_set_all (P : item -> Prop) p3 : (forall it, P it -> P (with_p3 it p3)) -> forall set st off bnr j st' rc, all_st P st -> Forall P set ->
  sched_set st off bnr j set p3 = Ok (st', rc) -> all_st P st'.
Proof.
  intros HP. induction set as [|it r IH]; intros st off bnr j st' rc H HF E; cbn [sched_set] in E; [discriminate|].
  apply Forall_cons_iff in HF as (Hi & Hr).
  destruct (i_cb it =? CB_END_SET); [injection E as <- _; exact H|].
  destruct (i_cb it =? CB_NULL); [eapply IH; eassumption|].
  destruct (nth_error (s_bk st) (Z.to_nat bnr)) as [b|] eqn:Eb; [|discriminate].
  destruct (c_NITEMS <=? Z.of_nat (length b)); [injection E as <- _; exact H|].
  eapply IH; [|exact Hr|exact E]. eapply all_st_append; [exact H|exact Eb|apply HP; exact Hi].
Qed.

Lemma reset_all (P : item -> Prop) st : all_st P st -> all_st P (tdma_sched_reset st).
Proof. intros H. unfold all_st, tdma_sched_reset. cbn [s_bk]. apply reset_from_Forall; [constructor|exact H]. Qed.

Lemma step_all (P : item -> Prop) rcf st o st' b : (forall it p3, P it -> P (with_p3 it p3)) -> all_st P st -> all_op P o ->
  step rcf st o = Ok (st', b) -> all_st P st'.
Proof.
  intros HP H Ho E. destruct o as [off it|off set p3| | |]; cbn [step all_op] in *.
  - destruct (tdma_schedule st off it) as [[st1 rc]| |] eqn:Es; try discriminate. injection E as <- _. eapply schedule_all; eassumption.
  - destruct (tdma_schedule_set st off set p3) as [[st1 rc]| |] eqn:Es; try discriminate. injection E as <- _.
    eapply sched_set_all; [intros x; apply HP|exact H|exact Ho|exact Es].
  - injection E as <- _. exact H.
  - unfold tdma_sched_execute in E.
    destruct (nth_error (s_bk st) (Z.to_nat (s_cur st))) as [bk|]; [|discriminate].
    destruct ((c_NITEMS <? Z.of_nat (length bk)) || (c_TDMASCHED_NUM_CB <? Z.of_nat (length bk))); [discriminate|].
    destruct (run_items rcf (exec_order bk)) as [lg [| rc |]]; try discriminate; injection E as <- _; [|exact H].
    apply all_st_set_bucket; [exact H|constructor].
  - injection E as <- _. apply reset_all. exact H.
Qed.

Lemma op_exec_dec (o : op) : {o = OExecute} + {o <> OExecute}.
Proof. destruct o; (left; reflexivity) || (right; discriminate). Qed.

Lemma step_sp_other rcf st o : o <> OExecute ->
  step_sp rcf st o = match step rcf st o with Ok (st', b) => Ok (st', lift_obs b) | OOB => OOB | NullCall => NullCall end.
Proof.
  intros Ho. destruct o as [off it|off set p3| | |]; cbn [step_sp step]; try reflexivity.
  - destruct (tdma_schedule st off it) as [[st1 rc]| |]; reflexivity.
  - destruct (tdma_schedule_set st off set p3) as [[st1 rc]| |]; reflexivity.
  - congruence.
Qed.

Lemma step_conservative rcf st o : plain_st st -> all_op plain o ->
  step_sp rcf st o = match step rcf st o with Ok (st', b) => Ok (st', lift_obs b) | OOB => OOB | NullCall => NullCall end /\
  forall st' b, step rcf st o = Ok (st', b) -> plain_st st'.
Proof.
  intros H Ho. split; [|intros st' b; apply (step_all plain); [intros x p3 Hx; exact Hx|exact H|exact Ho]].
  destruct (op_exec_dec o) as [->|Hne]; [|apply step_sp_other; exact Hne].
  cbn [step_sp step]. rewrite conservative by (apply all_st_abs; exact H). destruct (tdma_sched_execute rcf st); reflexivity.
Qed.

Lemma run_conservative rcf : forall ops st, plain_st st -> Forall (all_op plain) ops ->
  run_sp rcf st ops = (map lift_obs (fst (run rcf st ops)), snd (run rcf st ops)).
Proof.
  induction ops as [|o r IH]; intros st H HF; [reflexivity|]. apply Forall_cons_iff in HF as (Ho & Hr).
  cbn [run_sp run]. destruct (step_conservative rcf st o H Ho) as (E & Hp). rewrite E.
  destruct (step rcf st o) as [[st1 b]| |]; try reflexivity.
  rewrite (IH st1 (Hp st1 b eq_refl) Hr). destruct (run rcf st1 r) as [bs f]. reflexivity.
Qed.

Lemma init_plain c : plain_st (init c).
Proof. unfold plain_st, all_st, init. cbn [s_bk]. apply Forall_forall. intros b Hb. apply repeat_spec in Hb. subst b. constructor. Qed.

Definition childlike (it : item) : Prop := 2 <= i_cb it <= 9.
Definition no16 (it : item) : Prop := i_cb it <> 16.

Lemma child_childlike it : childlike (child_of it).
Proof. unfold childlike, child_of. cbn [i_cb]. pose proof (Z.mod_pos_bound (i_p1 it) 8 eq_refl). lia. Qed.

Lemma childlike_plain it : childlike it -> plain it.
Proof. unfold childlike, plain. lia. Qed.

Lemma childlike_no16 it : childlike it -> no16 it.
Proof. unfold childlike, no16. lia. Qed.

(* the running frame only grows, by child-like items; unlike ext this survives the reset done by callback 16 *)
Definition grows (st st' : sched) : Prop :=
  wf st' /\ cbs_ok st' /\ s_cur st' = s_cur st /\
  exists extra, bucket_abs st' (s_cur st) = bucket_abs st (s_cur st) ++ extra /\ Forall childlike extra.

Lemma grows_refl st : wf st -> cbs_ok st -> grows st st.
Proof. intros H1 H2. unfold grows. split; [exact H1|]. split; [exact H2|]. split; [reflexivity|]. exists []. rewrite app_nil_r. split; [reflexivity|constructor]. Qed.

Lemma grows_trans a b d : grows a b -> grows b d -> grows a d.
Proof.
  intros (_ & _ & C1 & x1 & E1 & F1) (W & K & C2 & x2 & E2 & F2). rewrite C1 in E2. unfold grows. split; [exact W|]. split; [exact K|]. split; [congruence|].
  exists (x1 ++ x2). rewrite E2, E1, app_assoc. split; [reflexivity|]. apply Forall_app. split; assumption.
Qed.

Lemma schedule_child st off it : wf st -> cbs_ok st -> childlike it ->
  exists st' rc, tdma_schedule st off it = Ok (st', rc) /\ grows st st' /\ ext st st'.
Proof.
  intros Hwf Hcb Hch. pose proof Hwf as (Hl & Hc & Hall). rewrite schedule_spec by exact Hwf. unfold bucket_due.
  set (B := (s_cur st + off) mod 25). assert (HB : 0 <= B < 25) by (apply Z.mod_pos_bound; reflexivity).
  destruct (8 <=? Z.of_nat (length (bucket_abs st B))) eqn:E; eexists _, _; (split; [reflexivity|]).
  - split; [apply grows_refl; assumption|apply ext_refl].
  - assert (X : forall j, 0 <= j < 25 -> exists x, bucket_abs (set_bucket st B (bucket_abs st B ++ [it])) j = bucket_abs st j ++ x /\ Forall childlike x).
    { intros j Hj. destruct (Z.eq_dec j B) as [->|Hne].
      - exists [it]. rewrite abs_set_bucket_eq by assumption. split; [reflexivity|constructor; [exact Hch|constructor]].
      - exists []. rewrite abs_set_bucket_neq by lia. rewrite app_nil_r. split; [reflexivity|constructor]. }
    split; [|split; [reflexivity|intros j Hj; destruct (X j Hj) as (x & Ex & _); exists x; exact Ex]].
    unfold grows. rewrite cur_set_bucket.
    split; [apply wf_set_bucket; [exact Hwf|rewrite app_length; cbn [length]; lia]|].
    split; [|split; [reflexivity|apply X; exact Hc]].
    apply cbs_set_bucket; [exact Hcb|]. apply Forall_app. split; [apply abs_cbs; exact Hcb|].
    constructor; [unfold childlike in Hch; lia|constructor].
Qed.

Lemma reset_grows st : wf st -> cbs_ok st -> grows st (tdma_sched_reset st).
Proof.
  intros Hwf Hcb. unfold grows. split; [apply wf_reset; exact Hwf|]. split; [apply cbs_reset; exact Hcb|].
  split; [reflexivity|]. exists []. rewrite app_nil_r. split; [|constructor].
  rewrite reset_abs by apply Hwf. rewrite Z.eqb_refl. reflexivity.
Qed.

Lemma cb_effect_ok rcf st it : wf st -> cbs_ok st ->
  exists st' rc evs, cb_effect rcf st it = Ok (st', rc, evs) /\ grows st st' /\ (rc = 0 \/ rc = rcf it) /\
    (no16 it -> ext st st').
Proof.
  intros Hwf Hcb. unfold cb_effect, no16, CB_RSPAWN.
  destruct (i_cb it =? CB_SPAWN).
  - destruct (schedule_child st (i_p2 it) (child_of it) Hwf Hcb (child_childlike it)) as (st' & rc & E & G & X).
    rewrite E. eexists _, _, _. split; [reflexivity|]. split; [exact G|]. split; [left; reflexivity|intros _; exact X].
  - destruct (i_cb it =? 16) eqn:E16.
    + pose proof (reset_grows st Hwf Hcb) as G0. pose proof G0 as (W0 & K0 & _).
      destruct (schedule_child (tdma_sched_reset st) (i_p2 it) (child_of it) W0 K0 (child_childlike it)) as (st' & rc & E & G & _).
      rewrite E. eexists _, _, _. split; [reflexivity|]. split; [|split; [left; reflexivity|lia]].
      eapply grows_trans; [exact G0|exact G].
    + eexists _, _, _. split; [reflexivity|]. split; [apply grows_refl; assumption|]. split; [right; reflexivity|intros _; apply ext_refl].
Qed.

Lemma cb_effect_calls rcf st it st' rc evs : cb_effect rcf st it = Ok (st', rc, evs) -> calls evs = [it].
Proof.
  unfold cb_effect. destruct (i_cb it =? CB_SPAWN).
  - destruct (tdma_schedule st (i_p2 it) (child_of it)) as [[s r]| |]; try discriminate. intros E; injection E as _ _ <-. reflexivity.
  - destruct (i_cb it =? CB_RSPAWN).
    + destruct (tdma_schedule (tdma_sched_reset st) (i_p2 it) (child_of it)) as [[s r]| |]; try discriminate. intros E; injection E as _ _ <-. reflexivity.
    + intros E; injection E as _ _ <-. reflexivity.
Qed.

Lemma cb_effect_all (P : item -> Prop) rcf st it st' rc evs : (forall x, P (child_of x)) -> all_st P st ->
  cb_effect rcf st it = Ok (st', rc, evs) -> all_st P st'.
Proof.
  intros HP H. unfold cb_effect. destruct (i_cb it =? CB_SPAWN).
  - destruct (tdma_schedule st (i_p2 it) (child_of it)) as [[s r]| |] eqn:Es; try discriminate. intros E; injection E as <- _ _.
    eapply schedule_all; [exact H|apply HP|exact Es].
  - destruct (i_cb it =? CB_RSPAWN).
    + destruct (tdma_schedule (tdma_sched_reset st) (i_p2 it) (child_of it)) as [[s r]| |] eqn:Es; try discriminate. intros E; injection E as <- _ _.
      eapply schedule_all; [apply reset_all; exact H|apply HP|exact Es].
    + intros E; injection E as <- _ _. exact H.
Qed.

Lemma loop_step rcf b f st extra i it : (length b <= 8)%nat -> wf st -> cbs_ok st -> bucket_abs st (s_cur st) = b ++ extra ->
  nth_error (exec_order b ++ extra) i = Some it ->
  (i < 8)%nat /\
  exists st1 rc evs, cb_effect rcf st it = Ok (st1, rc, evs) /\ grows st st1 /\
    exec_loop rcf (S f) (bucket_sort b) (s_cur st) st i =
      if rc <? 0 then SXOk st1 evs rc else sx_prepend evs (exec_loop rcf f (bucket_sort b) (s_cur st) st1 (S i)).
Proof.
  intros Hn Hwf Hcb Hb Ei. pose proof (abs_len st (s_cur st) Hwf) as Hlen.
  assert (Hi : (i < length (bucket_abs st (s_cur st)))%nat).
  { rewrite Hb, app_length, <- (exec_order_length b Hn), <- app_length. apply nth_error_Some. congruence. }
  split; [lia|].
  destruct (seq_fetch b extra i it Hn ltac:(lia) Ei) as (k & Ek & Eit). rewrite <- Hb in Eit.
  rewrite (exec_loop_step _ _ _ _ _ _ _ k it (abs_nth_error st (s_cur st) Hwf ltac:(apply Hwf)) Hi Ek Eit).
  assert (Hnz : i_cb it <> 0).
  { pose proof (abs_cbs st (s_cur st) Hcb) as HF. rewrite Forall_forall in HF. apply HF. eapply nth_error_In. exact Eit. }
  unfold CB_NULL. replace (i_cb it =? 0) with false by lia.
  destruct (cb_effect_ok rcf st it Hwf Hcb) as (st1 & rc & evs & E & G & _). rewrite E.
  exists st1, rc, evs. split; [reflexivity|]. split; [exact G|reflexivity].
Qed.

(* spawn_phase that stops at the first callback reporting failure, with that result *)
Fixpoint run_cbs (rcf : item -> Z) (st : sched) (xs : list item) : sched * list xev * option Z :=
  match xs with
  | [] => (st, [], None)
  | it :: r =>
    match cb_effect rcf st it with
    | Ok (st', rc, evs) =>
      if rc <? 0 then (st', evs, Some rc)
      else let '(st2, evs2, o) := run_cbs rcf st' r in (st2, evs ++ evs2, o)
    | _ => (st, [], None)
    end
  end.

(* the frame held b at entry and holds b ++ extra now; of exec_order b ++ extra, [done] have run, xs are to run, then what they
   append (x1: child-like, so plain).  The counter stays below num_items <= 8: the fuel suffices *)
Lemma loop_run rcf b : (length b <= 8)%nat ->
  forall fuel st extra done xs, wf st -> cbs_ok st -> bucket_abs st (s_cur st) = b ++ extra ->
  exec_order b ++ extra = done ++ xs -> (8 - length done < fuel)%nat ->
  exists x1, Forall childlike x1 /\
    let '(st2, evs, o) := run_cbs rcf st (xs ++ x1) in
    grows st st2 /\ bucket_abs st2 (s_cur st) = b ++ extra ++ x1 /\
    exec_loop rcf fuel (bucket_sort b) (s_cur st) st (length done) =
      match o with
      | Some rc => SXOk st2 evs rc
      | None => SXOk (set_bucket st2 (s_cur st) []) evs (Z.of_nat (length b + length extra + length x1))
      end.
Proof.
  intros Hn. induction fuel as [|f IH]; intros st extra done xs Hwf Hcb Hb Ho Hf; [lia|].
  destruct xs as [|it xs].
  - exists []. split; [constructor|]. cbn [app run_cbs]. rewrite !app_nil_r, Nat.add_0_r.
    split; [apply grows_refl; assumption|]. split; [exact Hb|].
    assert (HL : length done = (length b + length extra)%nat) by (rewrite <- (exec_order_length b Hn), <- app_length, Ho, app_nil_r; reflexivity).
    rewrite (exec_loop_exit _ _ _ _ _ _ _ (abs_nth_error st (s_cur st) Hwf ltac:(apply Hwf))) by (rewrite Hb, app_length; lia).
    rewrite HL. reflexivity.
  - destruct (loop_step rcf b f st extra (length done) it Hn Hwf Hcb Hb) as (Hi & st1 & rc & evs & E & G & ->);
      [rewrite Ho; apply nth_error_mid|].
    pose proof G as (W1 & K1 & C1 & x & Ex & Fx). cbn [app run_cbs]. rewrite E.
    destruct (rc <? 0).
    + exists x. split; [exact Fx|]. split; [exact G|]. split; [rewrite Ex, Hb, app_assoc; reflexivity|reflexivity].
    + destruct (IH st1 (extra ++ x) (done ++ [it]) (xs ++ x) W1 K1) as (x1 & Fx1 & H).
      { rewrite C1, Ex, Hb, app_assoc. reflexivity. }
      { rewrite app_assoc, Ho, <- !app_assoc. reflexivity. }
      { rewrite app_length. cbn [length]. lia. }
      exists (x ++ x1). split; [apply Forall_app; split; assumption|]. rewrite app_assoc.
      destruct (run_cbs rcf st1 ((xs ++ x) ++ x1)) as [[st2 evs2] o].
      rewrite C1, !app_length in H. cbn [length] in H. rewrite Nat.add_1_r in H. destruct H as (G2 & Ex2 & ->).
      split; [eapply grows_trans; eassumption|]. split; [rewrite Ex2, <- !app_assoc; reflexivity|].
      rewrite !app_length. destruct o; cbn [sx_prepend]; [reflexivity|]. do 2 f_equal. lia.
Qed.

Lemma execute_sp_run rcf st : wf st -> cbs_ok st ->
  exists x1, Forall childlike x1 /\
    let '(st2, evs, o) := run_cbs rcf st (exec_order (bucket_abs st (s_cur st)) ++ x1) in
    grows st st2 /\ bucket_abs st2 (s_cur st) = bucket_abs st (s_cur st) ++ x1 /\
    tdma_sched_execute_sp rcf st =
      match o with
      | Some rc => SXOk st2 evs rc
      | None => SXOk (set_bucket st2 (s_cur st) []) evs (Z.of_nat (length (bucket_abs st (s_cur st)) + length x1))
      end.
Proof.
  intros Hwf Hcb. pose proof (abs_len st (s_cur st) Hwf) as Hlen.
  unfold tdma_sched_execute_sp. rewrite abs_nth_error by (try assumption; apply Hwf). rewrite ni_eq, ncb_eq. set (b := bucket_abs st (s_cur st)) in *.
  replace ((8 <? Z.of_nat (length b)) || (8 <? Z.of_nat (length b))) with false by lia.
  destruct (loop_run rcf b Hlen 9%nat st [] [] (exec_order b) Hwf Hcb) as (x1 & Fx & H);
    [rewrite app_nil_r; reflexivity|apply app_nil_r|cbn [length]; lia|].
  exists x1. split; [exact Fx|]. rewrite Nat.add_0_r in H. exact H.
Qed.

Lemma execute_sp_total rcf st : wf st -> cbs_ok st ->
  exists st' lg r, tdma_sched_execute_sp rcf st = SXOk st' lg r /\ wf st' /\ cbs_ok st' /\ s_cur st' = s_cur st.
Proof.
  intros Hwf Hcb. destruct (execute_sp_run rcf st Hwf Hcb) as (x1 & _ & H).
  destruct (run_cbs rcf st _) as [[st2 evs] o]. destruct H as ((W2 & K2 & C2 & _) & _ & ->).
  destruct o; eexists _, _, _; (split; [reflexivity|]); [auto|].
  split; [apply wf_set_bucket; [exact W2|cbn; lia]|]. split; [apply cbs_set_bucket; [exact K2|constructor]|exact C2].
Qed.

Lemma step_sp_ok rcf st o : wf st -> cbs_ok st -> op_ok o ->
  exists st' b, step_sp rcf st o = Ok (st', b) /\ wf st' /\ cbs_ok st'.
Proof.
  intros Hwf Hcb Hok. destruct (op_exec_dec o) as [->|Hne].
  - destruct (execute_sp_total rcf st Hwf Hcb) as (st' & lg & r & He & W & K & _). cbn [step_sp]. rewrite He.
    eexists _, _. split; [reflexivity|]. split; assumption.
  - rewrite step_sp_other by exact Hne. destruct (step_ok rcf st o Hwf Hcb Hok) as (st' & b & -> & H).
    eexists _, _. split; [reflexivity|exact H].
Qed.

Lemma run_sp_ok rcf : forall ops st, wf st -> cbs_ok st -> Forall op_ok ops ->
  exists os st', run_sp rcf st ops = (os, FOk st') /\ wf st' /\ cbs_ok st' /\ length os = length ops.
Proof.
  induction ops as [|o r IH]; intros st Hwf Hcb HF; cbn [run_sp].
  - exists [], st. split; [reflexivity|]. split; [exact Hwf|]. split; [exact Hcb|reflexivity].
  - inversion HF as [|? ? Ho Hr]; subst.
    destruct (step_sp_ok rcf st o Hwf Hcb Ho) as (st1 & b & Hs & Hwf1 & Hcb1). rewrite Hs.
    destruct (IH st1 Hwf1 Hcb1 Hr) as (os & st2 & Hrun & Hwf2 & Hcb2 & Hlen). rewrite Hrun.
    exists (b :: os), st2. split; [reflexivity|]. split; [exact Hwf2|]. split; [exact Hcb2|cbn [length]; lia].
Qed.

Lemma spawn_phase_grows rcf : forall xs st, wf st -> cbs_ok st -> grows st (fst (spawn_phase rcf st xs)).
Proof.
  induction xs as [|it r IH]; intros st Hwf Hcb; [apply grows_refl; assumption|].
  destruct (cb_effect_ok rcf st it Hwf Hcb) as (st1 & rc & evs & E & G & _). rewrite (spawn_phase_cons _ _ _ _ _ _ _ E).
  pose proof G as (W1 & K1 & _). eapply grows_trans; [exact G|exact (IH st1 W1 K1)].
Qed.

Lemma spawn_phase_plain rcf st : forall xs, Forall plain xs -> spawn_phase rcf st xs = (st, map ECall xs).
Proof.
  induction xs as [|it r IH]; intros H; [reflexivity|]. apply Forall_cons_iff in H as (Hi & Hr).
  rewrite (spawn_phase_cons _ _ _ _ _ _ _ (cb_effect_plain rcf st it Hi)), (IH Hr). reflexivity.
Qed.

Lemma spawn_phase_app rcf : forall xs ys st, wf st -> cbs_ok st ->
  spawn_phase rcf st (xs ++ ys) =
    (fst (spawn_phase rcf (fst (spawn_phase rcf st xs)) ys), snd (spawn_phase rcf st xs) ++ snd (spawn_phase rcf (fst (spawn_phase rcf st xs)) ys)).
Proof.
  induction xs as [|it r IH]; intros ys st Hwf Hcb.
  - cbn [app spawn_phase fst snd]. destruct (spawn_phase rcf st ys); reflexivity.
  - destruct (cb_effect_ok rcf st it Hwf Hcb) as (st1 & rc & evs & E & (W1 & K1 & _) & _).
    cbn [app]. rewrite !(spawn_phase_cons _ _ _ _ _ _ _ E), (IH ys st1 W1 K1). cbn [fst snd]. rewrite app_assoc. reflexivity.
Qed.

Lemma calls_spawn_phase rcf : forall xs st, wf st -> cbs_ok st -> calls (snd (spawn_phase rcf st xs)) = xs.
Proof.
  induction xs as [|it r IH]; intros st Hwf Hcb; [reflexivity|].
  destruct (cb_effect_ok rcf st it Hwf Hcb) as (st1 & rc & evs & E & (W1 & K1 & _) & _). rewrite (spawn_phase_cons _ _ _ _ _ _ _ E).
  cbn [snd]. rewrite calls_app, (IH st1 W1 K1), (cb_effect_calls _ _ _ _ _ _ E). reflexivity.
Qed.

Lemma spawn_phase_ext rcf : forall xs st, wf st -> cbs_ok st -> Forall no16 xs -> all_st no16 st ->
  ext st (fst (spawn_phase rcf st xs)) /\ all_st no16 (fst (spawn_phase rcf st xs)).
Proof.
  induction xs as [|it r IH]; intros st Hwf Hcb HF Hno; [split; [apply ext_refl|exact Hno]|].
  apply Forall_cons_iff in HF as (Hi & Hr).
  destruct (cb_effect_ok rcf st it Hwf Hcb) as (st1 & rc & evs & E & (W1 & K1 & _) & _ & X). rewrite (spawn_phase_cons _ _ _ _ _ _ _ E).
  pose proof (cb_effect_all no16 _ _ _ _ _ _ (fun x => childlike_no16 _ (child_childlike x)) Hno E) as Hno1.
  destruct (IH st1 W1 K1 Hr Hno1) as (X2 & Hno2). split; [eapply ext_trans; [apply X; exact Hi|exact X2]|exact Hno2].
Qed.

Lemma run_cbs_ok rcf : (forall x, 0 <= rcf x) -> forall xs st, wf st -> cbs_ok st ->
  run_cbs rcf st xs = (fst (spawn_phase rcf st xs), snd (spawn_phase rcf st xs), None).
Proof.
  intros Hr. induction xs as [|it r IH]; intros st Hwf Hcb; [reflexivity|].
  destruct (cb_effect_ok rcf st it Hwf Hcb) as (st1 & rc & evs & E & (W1 & K1 & _) & Hrc & _).
  cbn [run_cbs]. rewrite E, (spawn_phase_cons _ _ _ _ _ _ _ E), (IH st1 W1 K1).
  replace (rc <? 0) with false by (specialize (Hr it); lia). reflexivity.
Qed.

Lemma execute_sp_shape rcf st : wf st -> cbs_ok st -> (forall x, 0 <= rcf x) ->
  exists extra,
    bucket_due (fst (spawn_phase rcf st (exec_order (bucket_due st 0)))) 0 = bucket_due st 0 ++ extra /\
    Forall childlike extra /\
    tdma_sched_execute_sp rcf st =
      SXOk (set_bucket (fst (spawn_phase rcf st (exec_order (bucket_due st 0)))) (s_cur st) [])
           (snd (spawn_phase rcf st (exec_order (bucket_due st 0))) ++ map ECall extra)
           (Z.of_nat (length (bucket_due st 0) + length extra)).
Proof.
  intros Hwf Hcb Hr. rewrite (bucket_due_0 st Hwf). destruct (execute_sp_run rcf st Hwf Hcb) as (extra & Fx & H).
  assert (Hx : Forall plain extra) by (eapply Forall_impl; [|exact Fx]; apply childlike_plain).
  pose proof (spawn_phase_grows rcf (exec_order (bucket_abs st (s_cur st))) st Hwf Hcb) as (W1 & K1 & C1 & _).
  rewrite (run_cbs_ok rcf Hr _ st Hwf Hcb), (spawn_phase_app rcf _ extra st Hwf Hcb), (spawn_phase_plain rcf _ extra Hx) in H.
  cbn [fst snd] in H. destruct H as (_ & Ex & El).
  exists extra. rewrite (bucket_due_0 _ W1), C1. split; [exact Ex|]. split; [exact Fx|exact El].
Qed.

Lemma not_plain_15 sp : i_cb sp = 15 \/ i_cb sp = 16 -> ~ plain sp.
Proof. unfold plain. lia. Qed.

Lemma exec_order_split b l1 sp l2 : (length b <= 8)%nat -> b = l1 ++ sp :: l2 -> Forall plain l1 -> Forall plain l2 ->
  exists xs1 xs2, exec_order b = xs1 ++ sp :: xs2 /\ Forall plain xs1 /\ Forall plain xs2.
Proof.
  intros Hn Hb H1 H2. pose proof (exec_order_perm b Hn) as P.
  assert (Hin : In sp (exec_order b)).
  { apply (Permutation_in _ (Permutation_sym P)). rewrite Hb. apply in_or_app. right. left. reflexivity. }
  apply in_split in Hin as (xs1 & xs2 & E). exists xs1, xs2. split; [exact E|].
  rewrite E, Hb in P. apply Permutation_app_inv in P.
  assert (HF : Forall plain (xs1 ++ xs2)).
  { eapply Permutation_Forall; [apply Permutation_sym; exact P|]. apply Forall_app. split; assumption. }
  apply Forall_app in HF. exact HF.
Qed.

Lemma cleared_due st1 c : wf st1 -> s_cur st1 = c ->
  bucket_due (set_bucket st1 c []) 0 = [] /\ s_cur (set_bucket st1 c []) = c /\
  forall d, 0 < d < 25 -> bucket_due (set_bucket st1 c []) d = bucket_due st1 d.
Proof.
  intros W <-. split; [apply (bucket_due_clear st1 0 W); lia|]. split; [reflexivity|].
  intros d Hd. rewrite bucket_due_clear by (try assumption; lia). replace (d =? 0) with false by lia. reflexivity.
Qed.

(* the common part: whatever the one callback sp does (state st1 with extra appended to the running frame, events evs), the call
   is: the sorted entry items with sp's doings in place, then extra, then the clear *)
Lemma single_exec rcf st l1 sp l2 st1 rc evs extra : wf st -> cbs_ok st -> (forall x, 0 <= rcf x) ->
  bucket_due st 0 = l1 ++ sp :: l2 -> Forall plain l1 -> Forall plain l2 ->
  cb_effect rcf st sp = Ok (st1, rc, evs) -> bucket_due st1 0 = bucket_due st 0 ++ extra ->
  exists st' lg, tdma_sched_execute_sp rcf st = SXOk st' lg (Z.of_nat (length (bucket_due st 0) + length extra)) /\
    calls lg = exec_order (bucket_due st 0) ++ extra /\ incl evs lg /\
    bucket_due st' 0 = [] /\ s_cur st' = s_cur st /\ (forall d, 0 < d < 25 -> bucket_due st' d = bucket_due st1 d).
Proof.
  intros Hwf Hcb Hr Hb H1 H2 E Ex.
  pose proof (due_len st 0 Hwf) as Hlen.
  destruct (exec_order_split _ l1 sp l2 Hlen Hb H1 H2) as (xs1 & xs2 & Eo & P1 & P2).
  destruct (execute_sp_shape rcf st Hwf Hcb Hr) as (extra' & Ex' & _ & Ee).
  pose proof (spawn_phase_grows rcf (exec_order (bucket_due st 0)) st Hwf Hcb) as (W1 & _ & C1 & _).
  assert (Es : spawn_phase rcf st (exec_order (bucket_due st 0)) = (st1, map ECall xs1 ++ evs ++ map ECall xs2)).
  { rewrite Eo, spawn_phase_app, (spawn_phase_plain _ _ _ P1) by assumption. cbn [fst snd].
    rewrite (spawn_phase_cons _ _ _ _ _ _ _ E), (spawn_phase_plain _ _ _ P2). reflexivity. }
  rewrite Es in Ex', Ee, W1, C1. cbn [fst snd] in Ex', Ee, W1, C1. rewrite Ex in Ex'. apply app_inv_head in Ex'. subst extra'.
  destruct (cleared_due st1 (s_cur st) W1 C1) as (Z0 & Zc & Zd).
  eexists _, _. split; [exact Ee|].
  split; [rewrite Eo, !calls_app, !calls_map_ECall, (cb_effect_calls _ _ _ _ _ _ E), <- !app_assoc; reflexivity|].
  split; [intros e He; apply in_or_app; left; apply in_or_app; right; apply in_or_app; left; exact He|].
  split; [exact Z0|]. split; [exact Zc|exact Zd].
Qed.

Lemma cb_effect_spawn rcf st sp : i_cb sp = 15 ->
  cb_effect rcf st sp = match tdma_schedule st (i_p2 sp) (child_of sp) with
                        | Ok (st', rc) => Ok (st', 0, [ECall sp; ESpawn (i_p2 sp) (child_of sp) rc])
                        | OOB => OOB | NullCall => NullCall end.
Proof. intros H. unfold cb_effect, CB_SPAWN. rewrite H. reflexivity. Qed.

Lemma same_frame_child rcf st l1 sp l2 : wf st -> cbs_ok st -> (forall x, 0 <= rcf x) ->
  bucket_due st 0 = l1 ++ sp :: l2 -> Forall plain l1 -> Forall plain l2 -> i_cb sp = 15 -> i_p2 sp = 0 ->
  (length (bucket_due st 0) < 8)%nat ->
  exists st' lg, tdma_sched_execute_sp rcf st = SXOk st' lg (Z.of_nat (length (bucket_due st 0)) + 1) /\
    calls lg = exec_order (bucket_due st 0) ++ [child_of sp] /\
    In (ESpawn 0 (child_of sp) 0) lg /\
    bucket_due st' 0 = [] /\ s_cur st' = s_cur st /\ (forall d, 0 < d < 25 -> bucket_due st' d = bucket_due st d).
Proof.
  intros Hwf Hcb Hr Hb H1 H2 Hsp H0 Hroom.
  destruct (overflow_reported st 0 (child_of sp) Hwf ltac:(lia)) as (_ & Hfit).
  destruct (Hfit Hroom) as (st1 & Es & _ & D0 & Dn).
  assert (E : cb_effect rcf st sp = Ok (st1, 0, [ECall sp; ESpawn 0 (child_of sp) 0])) by (rewrite cb_effect_spawn, H0, Es; [reflexivity|exact Hsp]).
  destruct (single_exec rcf st l1 sp l2 st1 0 _ _ Hwf Hcb Hr Hb H1 H2 E D0) as (st' & lg & Ee & Ec & Ei & Z0 & Zc & Zd).
  exists st', lg. split; [rewrite Ee; f_equal; cbn [length]; lia|]. split; [exact Ec|].
  split; [apply Ei; right; left; reflexivity|]. split; [exact Z0|]. split; [exact Zc|].
  intros d Hd. rewrite Zd by exact Hd. apply Dn; lia.
Qed.

Lemma child_ahead rcf st l1 sp l2 N : wf st -> cbs_ok st -> (forall x, 0 <= rcf x) ->
  bucket_due st 0 = l1 ++ sp :: l2 -> Forall plain l1 -> Forall plain l2 -> i_cb sp = 15 -> i_p2 sp = N -> 0 < N < 25 ->
  (length (bucket_due st N) < 8)%nat ->
  exists st' lg, tdma_sched_execute_sp rcf st = SXOk st' lg (Z.of_nat (length (bucket_due st 0))) /\
    calls lg = exec_order (bucket_due st 0) /\
    In (ESpawn N (child_of sp) 0) lg /\
    bucket_due st' 0 = [] /\ s_cur st' = s_cur st /\
    bucket_due st' N = bucket_due st N ++ [child_of sp] /\
    (forall d, 0 < d < 25 -> d <> N -> bucket_due st' d = bucket_due st d).
Proof.
  intros Hwf Hcb Hr Hb H1 H2 Hsp H0 HN Hroom.
  destruct (overflow_reported st N (child_of sp) Hwf ltac:(lia)) as (_ & Hfit).
  destruct (Hfit Hroom) as (st1 & Es & _ & DN & Dn).
  assert (E : cb_effect rcf st sp = Ok (st1, 0, [ECall sp; ESpawn N (child_of sp) 0])) by (rewrite cb_effect_spawn, H0, Es; [reflexivity|exact Hsp]).
  assert (D0 : bucket_due st1 0 = bucket_due st 0 ++ []) by (rewrite app_nil_r; apply Dn; lia).
  destruct (single_exec rcf st l1 sp l2 st1 0 _ _ Hwf Hcb Hr Hb H1 H2 E D0) as (st' & lg & Ee & Ec & Ei & Z0 & Zc & Zd).
  rewrite app_nil_r in Ec. rewrite Nat.add_0_r in Ee.
  exists st', lg. split; [exact Ee|]. split; [exact Ec|].
  split; [apply Ei; right; left; reflexivity|]. split; [exact Z0|]. split; [exact Zc|]. split; [rewrite Zd by exact HN; exact DN|].
  intros d Hd Hne. rewrite Zd by exact Hd. apply Dn; lia.
Qed.

Lemma child_refused rcf st l1 sp l2 N : wf st -> cbs_ok st -> (forall x, 0 <= rcf x) ->
  bucket_due st 0 = l1 ++ sp :: l2 -> Forall plain l1 -> Forall plain l2 -> i_cb sp = 15 -> i_p2 sp = N -> 0 <= N < 25 ->
  (length (bucket_due st N) >= 8)%nat ->
  exists st' lg, tdma_sched_execute_sp rcf st = SXOk st' lg (Z.of_nat (length (bucket_due st 0))) /\
    calls lg = exec_order (bucket_due st 0) /\
    In (ESpawn N (child_of sp) (-1)) lg /\
    bucket_due st' 0 = [] /\ s_cur st' = s_cur st /\
    (forall d, 0 < d < 25 -> bucket_due st' d = bucket_due st d).
Proof.
  intros Hwf Hcb Hr Hb H1 H2 Hsp H0 HN Hfull.
  destruct (overflow_reported st N (child_of sp) Hwf ltac:(lia)) as (Hrefuse & _).
  assert (E : cb_effect rcf st sp = Ok (st, 0, [ECall sp; ESpawn N (child_of sp) (-1)])) by (rewrite cb_effect_spawn, H0, (Hrefuse Hfull); [reflexivity|exact Hsp]).
  destruct (single_exec rcf st l1 sp l2 st 0 _ [] Hwf Hcb Hr Hb H1 H2 E ltac:(rewrite app_nil_r; reflexivity)) as (st' & lg & Ee & Ec & Ei & Z0 & Zc & Zd).
  rewrite app_nil_r in Ec. rewrite Nat.add_0_r in Ee.
  exists st', lg. split; [exact Ee|]. split; [exact Ec|].
  split; [apply Ei; right; left; reflexivity|]. split; [exact Z0|]. split; [exact Zc|exact Zd].
Qed.

(* callback 16 is the prim_fbsb.c pattern: tdma_sched_reset(), then tdma_schedule(0, ...) from a running callback *)
Lemma cb_effect_rspawn rcf st sp : i_cb sp = 16 ->
  cb_effect rcf st sp = match tdma_schedule (tdma_sched_reset st) (i_p2 sp) (child_of sp) with
                        | Ok (st', rc) => Ok (st', 0, [ECall sp; EReset (stored (tdma_sched_reset st)); ESpawn (i_p2 sp) (child_of sp) rc])
                        | OOB => OOB | NullCall => NullCall end.
Proof. intros H. unfold cb_effect, CB_SPAWN, CB_RSPAWN. rewrite H. reflexivity. Qed.

Lemma reset_then_same_frame_child rcf st l1 sp l2 : wf st -> cbs_ok st -> (forall x, 0 <= rcf x) ->
  bucket_due st 0 = l1 ++ sp :: l2 -> Forall plain l1 -> Forall plain l2 -> i_cb sp = 16 -> i_p2 sp = 0 ->
  (length (bucket_due st 0) < 8)%nat ->
  exists st' lg, tdma_sched_execute_sp rcf st = SXOk st' lg (Z.of_nat (length (bucket_due st 0)) + 1) /\
    calls lg = exec_order (bucket_due st 0) ++ [child_of sp] /\
    In (EReset (Z.of_nat (length (bucket_due st 0)))) lg /\ In (ESpawn 0 (child_of sp) 0) lg /\
    s_cur st' = s_cur st /\ (forall d, 0 <= d < 25 -> bucket_due st' d = []).
Proof.
  intros Hwf Hcb Hr Hb H1 H2 Hsp H0 Hroom.
  set (st0 := tdma_sched_reset st).
  assert (R0 : bucket_due st0 0 = bucket_due st 0) by (unfold st0; rewrite bucket_due_reset by (try assumption; lia); reflexivity).
  destruct (overflow_reported st0 0 (child_of sp) (wf_reset st Hwf) ltac:(lia)) as (_ & Hfit).
  destruct (Hfit ltac:(rewrite R0; exact Hroom)) as (st1 & Es & _ & D0 & Dn). rewrite R0 in D0.
  assert (Est : stored st0 = Z.of_nat (length (bucket_due st 0))).
  { unfold st0. rewrite reset_stored by exact Hwf. rewrite bucket_due_0 by exact Hwf. reflexivity. }
  assert (E : cb_effect rcf st sp = Ok (st1, 0, [ECall sp; EReset (Z.of_nat (length (bucket_due st 0))); ESpawn 0 (child_of sp) 0])).
  { rewrite cb_effect_rspawn by exact Hsp. fold st0. rewrite H0, Es, Est. reflexivity. }
  destruct (single_exec rcf st l1 sp l2 st1 0 _ _ Hwf Hcb Hr Hb H1 H2 E D0) as (st' & lg & Ee & Ec & Ei & Z0 & Zc & Zd).
  exists st', lg. split; [rewrite Ee; f_equal; cbn [length]; lia|]. split; [exact Ec|].
  split; [apply Ei; right; left; reflexivity|]. split; [apply Ei; right; right; left; reflexivity|]. split; [exact Zc|].
  intros d Hd. destruct (Z.eq_dec d 0) as [->|Hne]; [exact Z0|].
  rewrite Zd, Dn by lia. unfold st0. rewrite bucket_due_reset by assumption. replace (d =? 0) with false by lia. reflexivity.
Qed.

(* a reset erases other frames by design, whether it is the operation or callback 16: both are excluded below *)
Lemma execute_sp_keeps rcf st : wf st -> cbs_ok st -> (forall x, 0 <= rcf x) -> all_st no16 st ->
  exists st' extra, tdma_sched_execute_sp rcf st = SXOk st' (snd (spawn_phase rcf st (exec_order (bucket_due st 0))) ++ map ECall extra)
                                              (Z.of_nat (length (bucket_due st 0) + length extra)) /\
    Forall childlike extra /\ all_st no16 st' /\ bucket_due st' 0 = [] /\
    forall d, 0 < d < 25 -> exists x, bucket_due st' d = bucket_due st d ++ x.
Proof.
  intros Hwf Hcb Hr Hno. destruct (execute_sp_shape rcf st Hwf Hcb Hr) as (extra & Ex & Fx & Ee).
  assert (HF : Forall no16 (exec_order (bucket_due st 0))).
  { eapply Permutation_Forall; [apply Permutation_sym, exec_order_perm, due_len; exact Hwf|]. apply all_st_abs. exact Hno. }
  destruct (spawn_phase_ext rcf _ st Hwf Hcb HF Hno) as (Hext & Hno1).
  pose proof (spawn_phase_grows rcf (exec_order (bucket_due st 0)) st Hwf Hcb) as (W1 & K1 & C1 & _).
  destruct (cleared_due _ (s_cur st) W1 C1) as (Z0 & _ & Zd).
  eexists _, extra. split; [exact Ee|]. split; [exact Fx|]. split; [apply all_st_set_bucket; [exact Hno1|constructor]|].
  split; [exact Z0|]. intros d Hd. rewrite Zd by exact Hd. apply ext_due. exact Hext.
Qed.

Lemma step_sp_keeps rcf st o st' b d k it : wf st -> cbs_ok st -> (forall x, 0 <= rcf x) -> all_st no16 st -> op_ok o -> all_op no16 o ->
  step_sp rcf st o = Ok (st', b) -> o <> OReset ->
  0 <= d -> d + (if is_adv o then 1 else 0) < 25 -> (o = OExecute -> d <> 0) ->
  nth_error (bucket_due st (d + (if is_adv o then 1 else 0))) k = Some it ->
  nth_error (bucket_due st' d) k = Some it /\ all_st no16 st'.
Proof.
  intros Hwf Hcb Hr Hno Hok Ho Hs Hnr Hd0 Hd Hex Hh. destruct (op_exec_dec o) as [->|Hne].
  - destruct (execute_sp_keeps rcf st Hwf Hcb Hr Hno) as (st1 & extra & E & _ & Hno1 & _ & Hk).
    cbn [step_sp is_adv] in *. rewrite E in Hs. injection Hs as <- _. split; [|exact Hno1].
    destruct (Hk d ltac:(specialize (Hex eq_refl); lia)) as (x & ->). rewrite Z.add_0_r in Hh.
    rewrite nth_error_app1; [exact Hh|]. apply nth_error_Some. congruence.
  - rewrite step_sp_other in Hs by exact Hne. destruct (step rcf st o) as [[st1 b1]| |] eqn:E; try discriminate. injection Hs as <- _.
    split; [exact (step_keeps_due rcf st o st1 b1 d k it Hwf Hcb Hok E Hnr Hd0 Hd Hex Hh)|].
    apply (step_all no16 rcf st o st1 b1); [intros x p3 Hx; exact Hx|exact Hno|exact Ho|exact E].
Qed.

Lemma mid_keeps_sp rcf k it : (forall x, 0 <= rcf x) ->
  forall mid st os st', wf st -> cbs_ok st -> all_st no16 st -> Forall op_ok mid -> Forall (all_op no16) mid ->
  run_sp rcf st mid = (os, FOk st') -> quiet mid ->
  nth_error (bucket_due st (advances mid)) k = Some it ->
  nth_error (bucket_due st' 0) k = Some it /\ wf st' /\ cbs_ok st' /\ all_st no16 st'.
Proof.
  intros Hrcf. induction mid as [|o r IH]; intros st os st' Hwf Hcb Hno HF HF16 Hrun Hq Hh.
  - injection Hrun as _ <-. auto.
  - apply Forall_cons_iff in HF as (Ho & HF). apply Forall_cons_iff in HF16 as (Ho16 & HF16).
    destruct (quiet_cons o r Hq) as (Hnr & Hex & Hq'). cbn [run_sp] in Hrun.
    destruct (step_sp_ok rcf st o Hwf Hcb Ho) as (st1 & b & Hs & Hwf1 & Hcb1). rewrite Hs in Hrun.
    destruct (run_sp rcf st1 r) as [bs f] eqn:Er. injection Hrun as _ ->.
    destruct Hq as (Hn & _). rewrite advances_cons, Z.add_comm in Hn, Hh.
    destruct (step_sp_keeps rcf st o st1 b (advances r) k it Hwf Hcb Hrcf Hno Ho Ho16 Hs Hnr (advances_nonneg r) Hn Hex Hh) as (Hh1 & Hno1).
    exact (IH st1 bs st' Hwf1 Hcb1 Hno1 HF HF16 Er Hq' Hh1).
Qed.

Lemma held_runs_on_time rcf s2 N k it mid :
  wf s2 -> cbs_ok s2 -> all_st no16 s2 -> (forall x, 0 <= rcf x) -> 0 <= N < 25 ->
  nth_error (bucket_due s2 N) k = Some it ->
  Forall op_ok mid -> Forall (all_op no16) mid -> advances mid = N -> no_reset mid ->
  (forall a b, mid = a ++ OExecute :: b -> advances a < N) ->
  exists os s3 s4 lg extra,
    run_sp rcf s2 mid = (os, FOk s3) /\
    nth_error (bucket_due s3 0) k = Some it /\
    tdma_sched_execute_sp rcf s3 = SXOk s4 lg (Z.of_nat (length (bucket_due s3 0) + length extra)) /\
    calls lg = exec_order (bucket_due s3 0) ++ extra /\ Forall childlike extra /\
    count_occ Nat.eq_dec (slot_order (bucket_due s3 0)) k = 1%nat /\
    bucket_due s4 0 = [].
Proof.
  intros Hwf Hcb Hno Hr HN Hh HF HF16 Hadv Hnr Hex. subst N.
  destruct (run_sp_ok rcf mid s2 Hwf Hcb HF) as (os & s3 & Hrun & _).
  destruct (mid_keeps_sp rcf k it Hr mid s2 os s3 Hwf Hcb Hno HF HF16 Hrun (conj (proj2 HN) (conj Hnr Hex)) Hh) as (Hh3 & W3 & K3 & Hno3).
  destruct (execute_sp_keeps rcf s3 W3 K3 Hr Hno3) as (s4 & extra & E & Fx & _ & Z0 & _).
  exists os, s3, s4, (snd (spawn_phase rcf s3 (exec_order (bucket_due s3 0))) ++ map ECall extra), extra.
  split; [exact Hrun|]. split; [exact Hh3|]. split; [exact E|].
  split; [rewrite calls_app, calls_map_ECall, calls_spawn_phase by assumption; reflexivity|]. split; [exact Fx|].
  split; [|exact Z0]. apply slot_once; [apply due_len; exact W3|]. apply nth_error_Some. congruence.
Qed.

(* non-vacuity: ring position 23, a frame with a lower-priority item, a spawner and a higher-priority item *)
Definition ex_sp_state (kind p2 : Z) : sched :=
  let st := match tdma_schedule (init 23) 0 (ex_item 5 2 2 2 3) with Ok (s, _) => s | _ => init 0 end in
  let st := match tdma_schedule st 0 (ex_item kind 129 p2 77 0) with Ok (s, _) => s | _ => init 0 end in
  match tdma_schedule st 0 (ex_item 4 1 1 1 (-3)) with Ok (s, _) => s | _ => init 0 end.

Example ex_sp_hypotheses :
  wf (ex_sp_state 15 0) /\ cbs_ok (ex_sp_state 15 0) /\
  bucket_due (ex_sp_state 15 0) 0 = [ex_item 5 2 2 2 3] ++ ex_item 15 129 0 77 0 :: [ex_item 4 1 1 1 (-3)] /\
  Forall plain [ex_item 5 2 2 2 3] /\ Forall plain [ex_item 4 1 1 1 (-3)] /\ (length (bucket_due (ex_sp_state 15 0) 0) < 8)%nat.
Proof.
  split. { split; [reflexivity|]. split; [change (s_cur (ex_sp_state 15 0)) with 23; lia|]. vm_compute. repeat constructor. }
  split. { unfold cbs_ok. vm_compute. repeat (constructor; try discriminate). }
  split; [reflexivity|]. split; [repeat constructor; cbn; lia|]. split; [repeat constructor; cbn; lia|]. vm_compute. lia.
Qed.

(* same frame: the child (cb 2 + 129 mod 8 = 3, prio 129 - 128 = 1) runs last in this very call although the item with prio 3 ran before it *)
Example ex_sp_same_frame :
  match tdma_sched_execute_sp ex_rcf (ex_sp_state 15 0) with
  | SXOk st' lg r => (calls lg, r, bucket_due st' 0)
  | _ => ([], -5, [])
  end = ([ex_item 4 1 1 1 (-3); ex_item 15 129 0 77 0; ex_item 5 2 2 2 3; ex_item 3 129 0 77 1], 4, []).
Proof. vm_compute. reflexivity. Qed.

(* 24 ahead from ring position 23: the child is in bucket (23 + 24) mod 25 = 22 and has not run *)
Example ex_sp_ahead :
  match tdma_sched_execute_sp ex_rcf (ex_sp_state 15 24) with
  | SXOk st' lg r => (calls lg, r, bucket_due st' 0, bucket_abs st' 22)
  | _ => ([], -5, [], [])
  end = ([ex_item 4 1 1 1 (-3); ex_item 15 129 24 77 0; ex_item 5 2 2 2 3], 3, [], [ex_item 3 129 24 77 1]).
Proof. vm_compute. reflexivity. Qed.

(* reset + schedule "right now" (prim_fbsb.c): an item waiting 3 frames ahead is erased, the child runs *)
Example ex_sp_reset :
  let st := match tdma_schedule (ex_sp_state 16 0) 3 (ex_item 9 9 9 9 0) with Ok (s, _) => s | _ => init 0 end in
  match tdma_sched_execute_sp ex_rcf st with
  | SXOk st' lg r => (lg, r, stored st')
  | _ => ([], -5, -5)
  end = ([ECall (ex_item 4 1 1 1 (-3)); ECall (ex_item 16 129 0 77 0); EReset 3; ESpawn 0 (ex_item 3 129 0 77 1) 0;
          ECall (ex_item 5 2 2 2 3); ECall (ex_item 3 129 0 77 1)], 4, 0).
Proof. vm_compute. reflexivity. Qed.

(* a full running frame refuses the same-frame child: 8 callbacks run, the spawner sees -1 *)
Example ex_sp_full :
  let fill := fix fill (n : nat) (st : sched) := match n with O => st | S m => fill m (match tdma_schedule st 0 (ex_item 6 0 0 0 1) with Ok (s, _) => s | _ => st end) end in
  match tdma_sched_execute_sp ex_rcf (fill 5%nat (ex_sp_state 15 0)) with
  | SXOk st' lg r => (length (calls lg), r, existsb (fun e => match e with ESpawn 0 _ (-1) => true | _ => false end) lg, stored st')
  | _ => (O, -5, false, -5)
  end = (8%nat, 8, true, 0).
Proof. vm_compute. reflexivity. Qed.

(* a failing callback (outside C08's quantifier) after a spawner: execute returns at once, the appended child stays stored *)
Example ex_sp_negative_rc_keeps_child :
  let rcf := fun it => if i_cb it =? 5 then -3 else 0 in
  match tdma_sched_execute_sp rcf (ex_sp_state 15 0) with
  | SXOk st' lg r => (r, length (bucket_due st' 0))
  | _ => (-5, O)
  end = (-3, 4%nat).
Proof. vm_compute. reflexivity. Qed.
