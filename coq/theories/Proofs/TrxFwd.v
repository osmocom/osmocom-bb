(* C02: BurstForwarder.forward_msg routes to exactly the running peers whose Rx frequency in that frame equals the sender's Tx frequency *)
From Coq Require Import ZArith List Bool Lia.
From OBB Require Import Base.Lists Model.Trxd Model.Trx Proofs.HoppingP.
Import ListNotations.
Open Scope Z_scope.

(* the routing condition of the property, for the transceiver t at position j *)
Definition is_rcpt (src_i : nat) (txf : option Z) (fn : Z) (j : nat) (t : trx) : bool :=
  negb (Nat.eqb j src_i) && x_run t && match rx_freq t fn with FOk rf => opt_eqb rf txf | FCrash => false end.

Fixpoint rcpts (src_i : nat) (txf : option Z) (fn : Z) (l : list trx) (j : nat) : list nat :=
  match l with
  | [] => []
  | t :: r => if is_rcpt src_i txf fn j t then j :: rcpts src_i txf fn r (S j) else rcpts src_i txf fn r (S j)
  end.

(* handle_data changes nothing the routing decision looks at *)
Lemma set_sim_route t s fn : x_run (set_sim t s) = x_run t /\ rx_freq (set_sim t s) fn = rx_freq t fn /\ tx_freq (set_sim t s) fn = tx_freq t fn.
Proof. unfold rx_freq, tx_freq, set_sim. cbn. auto. Qed.

Lemma is_rcpt_iff src_i txf fn j t : is_rcpt src_i txf fn j t = true <->
  j <> src_i /\ x_run t = true /\ exists rf, rx_freq t fn = FOk rf /\ opt_eqb rf txf = true.
Proof.
  unfold is_rcpt. rewrite !andb_true_iff, negb_true_iff, Nat.eqb_neq.
  destruct (rx_freq t fn) as [rf|]; split.
  - intros [[Hn Hr] Ho]. eauto.
  - intros [Hn [Hr [rf' [E Ho]]]]. injection E as <-. auto.
  - intros [_ H]. discriminate.
  - intros [_ [_ [rf [E _]]]]. discriminate.
Qed.

(* all that forwarding may change of a transceiver is its simulation state *)
Definition upto_sim (t t0 : trx) : Prop :=
  x_run t = x_run t0 /\ x_rx t = x_rx t0 /\ x_tx t = x_tx t0 /\ x_fh t = x_fh t0 /\ x_ver t = x_ver t0 /\ x_q t = x_q t0 /\ x_cfg t = x_cfg t0.

Lemma upto_sim_refl t : upto_sim t t.
Proof. repeat split. Qed.

Lemma upto_sim_set t s : upto_sim (set_sim t s) t.
Proof. repeat split. Qed.

Lemma upto_sim_trans a b c : upto_sim a b -> upto_sim b c -> upto_sim a c.
Proof. unfold upto_sim. intuition congruence. Qed.

Lemma upto_sim_set_q a b q : upto_sim a b -> upto_sim (set_q a q) (set_q b q).
Proof. unfold upto_sim. cbn. tauto. Qed.

Lemma fwd_loop_inv src_i src m txf fn : forall todo done j draws acc trxs' ds draws' crashed,
  fwd_loop src_i src m txf fn done todo j draws acc = (trxs', ds, draws', crashed) ->
  exists l, trxs' = rev done ++ l /\ Forall2 upto_sim l todo
            /\ (crashed = false -> map fst ds = map fst (rev acc) ++ rcpts src_i txf fn todo j).
Proof.
  induction todo as [|t rest IH]; intros done j draws acc trxs' ds draws' crashed H; cbn [fwd_loop] in H.
  - injection H as <- <- <- <-. exists []. cbn [rcpts]. rewrite !app_nil_r. split; [reflexivity|]. split; [constructor|reflexivity].
  - (* whatever the step does with t, it goes on with some t' in its place *)
    assert (Step : forall t' draws1 acc1, upto_sim t' t ->
              fwd_loop src_i src m txf fn (t' :: done) rest (S j) draws1 acc1 = (trxs', ds, draws', crashed) ->
              exists l, trxs' = rev done ++ l /\ Forall2 upto_sim l (t :: rest)
                        /\ (crashed = false -> map fst ds = map fst (rev acc1) ++ rcpts src_i txf fn rest (S j))).
    { intros t' draws1 acc1 Ht' H'. apply IH in H' as [l [-> [HF Hds]]]. exists (t' :: l). cbn [rev]. rewrite <- app_assoc.
      split; [reflexivity|]. split; [constructor; assumption|exact Hds]. }
    pose proof (Step t draws acc (upto_sim_refl t)) as Skip. cbn [rcpts]. unfold is_rcpt.
    destruct (Nat.eqb j src_i); cbn [negb andb]; [exact (Skip H)|].
    destruct (x_run t); cbn [negb andb]; [|exact (Skip H)].
    destruct (rx_freq t fn) as [rf|].
    2:{ (* a crash stops the loop and leaves the rest as it is *)
        injection H as <- <- <- <-. exists (t :: rest). split; [reflexivity|]. split; [apply Forall2_same, upto_sim_refl|discriminate]. }
    destruct (opt_eqb rf txf); cbn [negb] in *; [|exact (Skip H)].
    destruct (handle_data (x_sim t) (x_sim src) m (trans m (x_ver t)) draws) as [[s' d] dr'].
    destruct d as [o mm|mm|].
    3:{ injection H as <- <- <- <-. exists (set_sim t s' :: rest). split; [reflexivity|]. split; [|discriminate].
        constructor; [apply upto_sim_set|apply Forall2_same, upto_sim_refl]. }
    all: destruct (Step _ _ _ (upto_sim_set t s') H) as [l [E [HF Hds]]]; exists l; split; [exact E|]; split; [exact HF|].
    all: intros Hc; rewrite (Hds Hc); cbn [rev map fst]; rewrite map_app, <- app_assoc; reflexivity.
Qed.

Lemma rcpts_in src_i txf fn : forall l j k, In k (rcpts src_i txf fn l j) <->
  exists i t, k = (j + i)%nat /\ nth_error l i = Some t /\ is_rcpt src_i txf fn k t = true.
Proof.
  induction l as [|t r IH]; intros j k; cbn [rcpts].
  - split; [intros []|]. intros [[|i] [t [_ [H _]]]]; discriminate.
  - assert (Hr : In k (rcpts src_i txf fn r (S j)) <->
                 exists i t', k = (j + S i)%nat /\ nth_error r i = Some t' /\ is_rcpt src_i txf fn k t' = true).
    { rewrite IH. split; intros [i [t' [E H]]]; exists i, t'; (split; [lia|exact H]). }
    destruct (is_rcpt src_i txf fn j t) eqn:E; cbn [In]; rewrite Hr; split.
    + intros [<-|[i [t' H]]]; [exists 0%nat, t; rewrite Nat.add_0_r; auto|exists (S i), t'; exact H].
    + intros [[|i] [t' [-> H]]]; [left; lia|right; exists i, t'; auto].
    + intros [i [t' H]]. exists (S i), t'. exact H.
    + intros [[|i] [t' [-> [Hn Hc]]]]; [|exists i, t'; auto]. injection Hn as <-. rewrite Nat.add_0_r in Hc. congruence.
Qed.

Lemma rcpts_nodup src_i txf fn : forall l j, NoDup (rcpts src_i txf fn l j).
Proof.
  induction l as [|t r IH]; intros j; cbn [rcpts]; [constructor|]. destruct (is_rcpt src_i txf fn j t); [|apply IH].
  constructor; [|apply IH]. intros H. apply rcpts_in in H as [i [_ [E _]]]. lia.
Qed.

Theorem forward_routing trxs src_i m draws trxs' ds draws' src txf :
  nth_error trxs src_i = Some src -> tx_freq src (oz (t_fn m)) = FOk txf ->
  forward trxs src_i m draws = (trxs', ds, draws', false) ->
  map fst ds = rcpts src_i txf (oz (t_fn m)) trxs 0
  /\ NoDup (map fst ds)
  /\ (forall k, In k (map fst ds) <-> exists t, nth_error trxs k = Some t /\ k <> src_i /\ x_run t = true
                                      /\ exists rf, rx_freq t (oz (t_fn m)) = FOk rf /\ opt_eqb rf txf = true)
  /\ length trxs' = length trxs.
Proof.
  intros Hs Ht H. unfold forward in H. rewrite Hs, Ht in H. apply fwd_loop_inv in H as [l [-> [HF H1]]]. specialize (H1 eq_refl).
  cbn [rev map app] in *. rewrite H1. split; [reflexivity|]. split; [apply rcpts_nodup|]. split; [|exact (Forall2_length _ _ _ HF)].
  intros k. rewrite rcpts_in. split.
  - intros [i [t [-> [Hk Hr]]]]. exists t. split; [exact Hk|apply is_rcpt_iff, Hr].
  - intros [t [Hk Hr]]. exists k, t. split; [reflexivity|]. split; [exact Hk|apply is_rcpt_iff, Hr].
Qed.

(* a muted sender: the burst is stripped, so every recipient takes the suppressed branch (TrxMeta.handle_suppressed) *)
Lemma trans_stripped m ver : r_nope (trans (strip_burst m) ver) = true.
Proof. reflexivity. Qed.

Lemma fh_resolve_some h fn : 0 <= fh_hsn h <= 63 -> fh_ma h <> [] -> fh_resolve h fn <> None.
Proof.
  intros Hh Hma. unfold fh_resolve.
  assert (Hn : 0 < Z.of_nat (length (fh_ma h))) by (destruct (fh_ma h); [congruence|cbn [length]; lia]).
  destruct (py_total (fh_hsn h) (fh_maio h) _ fn ltac:(lia) Hn) as [mai [-> Hm]].
  destruct (mai <? 0) eqn:E; [lia|]. apply nth_error_Some. lia.
Qed.
