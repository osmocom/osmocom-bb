(* Lemmas about Model/MobAllocAss.v (C20): message -> cd_now.mob_alloc_lv -> gsm48_rr_render_ma. *)
From Coq Require Import ZArith List Bool Lia ZifyBool.
From OBB Require Import Base.Lists Base.Range Gen.MobAllocConst Gen.MobAllocSi4Const Model.MobAlloc Model.MobAllocSi4 Model.MobAllocAss Proofs.MobAllocP Proofs.MobAllocSi4P.
Import ListNotations.
Open Scope Z_scope.

Lemma zero_lv_eq : zero_lv = [0; 0; 0; 0; 0; 0; 0; 0; 0].
Proof. reflexivity. Qed.

(* nothing lost, nothing else written *)
Lemma lv_copy_ok limit slack l v rest lv0 : Zlength v = l -> l <= limit -> 0 <= slack <= Zlength rest -> l + 1 <= Zlength lv0 ->
  lv_copy limit slack (l :: v ++ rest) lv0 = ACopied (l :: v ++ skipn (Z.to_nat (l + 1)) lv0).
Proof. intros Hv Hl Hs Hlv. pose proof (Zlength_nonneg v). unfold lv_copy. cbv zeta.
  assert (HL : Zlength (l :: v ++ rest) = 1 + l + Zlength rest) by (rewrite Zlength_cons, Zlength_app; lia). rewrite HL.
  replace (1 + l + Zlength rest - 1 <? 0) with false by lia. change (rd (l :: v ++ rest) 0) with (Some l). cbv iota.
  replace (1 + l + Zlength rest - 1 <? l + slack) with false by lia. replace (limit <? l) with false by lia.
  replace ((1 + l + Zlength rest <? l + 1) || (Zlength lv0 <? l + 1)) with false by lia.
  replace (Z.to_nat (l + 1)) with (S (length v)) by (rewrite Zlength_correct in Hv; lia).
  cbn [firstn]. rewrite firstn_app_len by reflexivity. reflexivity. Qed.

Lemma lv_copy_zero limit slack l v rest : Zlength v = l -> l <= limit -> limit <= 8 -> 0 <= slack <= Zlength rest ->
  lv_copy limit slack (l :: v ++ rest) zero_lv = ACopied (l :: v ++ map (fun _ => 0) (range 0 (8 - l))).
Proof. intros Hv Hl H8 Hs. pose proof (Zlength_nonneg v). rewrite lv_copy_ok by (try assumption; rewrite zero_lv_eq; change (Zlength _) with 9; lia).
  f_equal. f_equal. f_equal. rewrite zero_lv_eq. assert (Hc : l = 0 \/ l = 1 \/ l = 2 \/ l = 3 \/ l = 4 \/ l = 5 \/ l = 6 \/ l = 7 \/ l = 8) by lia.
  destruct Hc as [->|[->|[->|[->|[->|[->|[->|[->| ->]]]]]]]]; reflexivity. Qed.

Lemma lv_copy_too_large limit slack tl lv0 l : rd tl 0 = Some l -> limit < l -> lv_copy limit slack tl lv0 = ARefuse (-22).
Proof. intros Hr Hl. unfold lv_copy. cbv zeta. destruct (Zlength tl - 1 <? 0); [reflexivity|]. rewrite Hr.
  destruct (Zlength tl - 1 <? l + slack); [reflexivity|]. replace (limit <? l) with true by lia. reflexivity. Qed.

Lemma lv_copy_short limit slack l v' lv0 : Zlength v' < l + slack -> lv_copy limit slack (l :: v') lv0 = ARefuse (-22).
Proof. intros Hv. pose proof (Zlength_nonneg v'). unfold lv_copy. cbv zeta. rewrite Zlength_cons.
  replace (Z.succ (Zlength v') - 1 <? 0) with false by lia. change (rd (l :: v') 0) with (Some l). cbv iota.
  replace (Z.succ (Zlength v') - 1 <? l + slack) with true by lia. reflexivity. Qed.

Lemma lv_copy_nil limit slack lv0 : lv_copy limit slack [] lv0 = ARefuse (-22).
Proof. reflexivity. Qed.

(* in bounds for every message and every limit up to the capacity of the array *)
Lemma lv_copy_safe limit slack tl lv0 : octets tl -> octets lv0 -> Zlength lv0 = 9 -> limit <= 8 -> 0 <= slack ->
  lv_copy limit slack tl lv0 = ARefuse (-22) \/
  exists lv, lv_copy limit slack tl lv0 = ACopied lv /\ Zlength lv = 9 /\ octets lv /\ 0 <= zn lv 0 <= limit /\ zn lv 0 = zn tl 0.
Proof. intros Ho Ho0 Hlv Hlim Hs. unfold lv_copy. cbv zeta. destruct (Zlength tl - 1 <? 0) eqn:E0; [left; reflexivity|].
  rewrite rd_ok by lia. pose proof (octets_zn tl 0 Ho ltac:(lia)) as Hl. set (l := zn tl 0) in *.
  destruct (Zlength tl - 1 <? l + slack) eqn:E1; [left; reflexivity|]. destruct (limit <? l) eqn:E2; [left; reflexivity|].
  replace ((Zlength tl <? l + 1) || (Zlength lv0 <? l + 1)) with false by lia. right. eexists. split; [reflexivity|].
  split; [rewrite Zlength_app, Zlength_firstn, Zlength_skipn by lia; lia|].
  split; [apply octets_app; split; [apply octets_firstn, Ho|apply octets_skipn, Ho0]|].
  assert (Hz : zn (firstn (Z.to_nat (l + 1)) tl ++ skipn (Z.to_nat (l + 1)) lv0) 0 = l).
  { destruct tl as [|t r]; [rewrite Zlength_nil in E0; lia|]. replace (Z.to_nat (l + 1)) with (S (Z.to_nat l)) by lia. reflexivity. }
  rewrite Hz. split; [lia|reflexivity]. Qed.

(* the copied array rendered: the specified list for the bitmap IN THE MESSAGE *)
Lemma render_copied l v z freq ma ma_len : Zlength v = l -> render_ma (l :: v ++ z) freq ma ma_len = render_ma (l :: v) freq ma ma_len.
Proof. intros Hv. pose proof (Zlength_nonneg v). unfold render_ma. change (rd (l :: v ++ z) 0) with (Some l). change (rd (l :: v) 0) with (Some l). cbv iota.
  destruct (l =? 0); [reflexivity|]. cbn [skipn].
  rewrite (decode_ext freq (v ++ z) v) by (intros k Hk; apply rd_app_l; lia). reflexivity. Qed.

Lemma imm_spec limit ours l v rest freq ma ma_len : (limit = 8 \/ limit = 4) -> ours <> 0 ->
  Zlength v = l -> 1 <= l <= limit -> Zlength freq = 1024 -> Zlength ma = 64 ->
  imm_handler limit ours 1 (l :: v ++ rest) freq ma ma_len =
    AsEst (l :: v ++ map (fun _ => 0) (range 0 (8 - l)))
          (Ok (if Zlength (spec_hopping freq v l) <? 1 then 101 else 0)
              (mkst freq (spec_hopping freq v l ++ skipn (length (spec_hopping freq v l)) ma) (Zlength (spec_hopping freq v l)))).
Proof. intros Hlim Ho Hv Hl Hf Hm. unfold imm_handler. pose proof (Zlength_nonneg rest).
  rewrite lv_copy_zero by (try assumption; lia). replace (ours =? 0) with false by lia. change (1 =? 0) with false. cbv iota.
  rewrite render_copied, render_exact by (try assumption; lia). reflexivity. Qed.

Lemma imm_safe limit ours h tl freq ma ma_len : (limit = 8 \/ limit = 4) -> octets tl -> Zlength freq = 1024 -> Zlength ma = 64 ->
  imm_handler limit ours h tl freq ma ma_len = AsRefused (-22) \/ imm_handler limit ours h tl freq ma ma_len = AsNotOurs \/
  exists lv rc s, imm_handler limit ours h tl freq ma ma_len = AsEst lv (Ok rc s) /\ Zlength lv = 9 /\ zn lv 0 <= limit.
Proof. intros Hlim Ho Hf Hm. unfold imm_handler.
  assert (Hoz : octets zero_lv) by (rewrite zero_lv_eq; repeat constructor; lia).
  destruct (lv_copy_safe limit 0 tl zero_lv Ho Hoz ltac:(reflexivity) ltac:(lia) ltac:(lia)) as [->|(lv & -> & Hl9 & Holv & Hl0 & Hz)]; [left; reflexivity|].
  destruct (ours =? 0); [right; left; reflexivity|]. right. right. destruct (h =? 0); [exists lv, 0, (mkst freq ma 0); split; [reflexivity|split; [exact Hl9|lia]]|].
  destruct (render_safe lv freq ma ma_len Hl9 Holv Hf Hm) as (rc & s & E). rewrite E. exists lv, rc, s. split; [reflexivity|]. split; [exact Hl9|lia]. Qed.

(* non-vacuity: IMM ASS EXT (limit 4), two bitmap octets 0f ff + a starting-time IE behind; cell allocation of 12 channels *)
Example ex_imm : match imm_handler 4 1 1 [2; 15; 255; 124; 1; 2] (tbl [512; 519; 526; 533; 540; 547; 554; 561; 568; 575; 582; 589] 0) (repeat 7 64) 9 with
                 | AsEst lv (Ok rc s) => lv ++ [rc; s_hlen s] ++ firstn 3 (s_hop s) | _ => [-1] end
                 = [2; 15; 255; 0; 0; 0; 0; 0; 0; 0; 12; 512; 519; 526].
Proof. rewrite tbl_upfrom. vm_compute. reflexivity. Qed.
Example ex_imm_refused : imm_handler 4 1 1 [5; 1; 2; 3; 4; 5] [] [] 0 = AsRefused (-22).
Proof. vm_compute. reflexivity. Qed.
