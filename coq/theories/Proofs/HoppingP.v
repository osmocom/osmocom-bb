(* Frequency hopping (C07): the firmware's and the simulator's MAI are the standard's. The one real step is that the
   mask pow_nbin_mask builds is 2^NBIN - 1 (pow_nbin_mask_ones), which turns `&` into `mod 2^NBIN` for every operand. *)
From Coq Require Import ZArith List Bool Lia.
From OBB Require Import Base.Bits Gen.HoppingTab Model.GsmTime Proofs.GsmTimeP Model.Hopping.
Import ListNotations.
Open Scope Z_scope.

Lemma tab_py : py_rntable = spec_rntable. Proof. reflexivity. Qed.
Lemma tab_c : c_rn_table = spec_rntable. Proof. reflexivity. Qed.

(* rfch.c pow_nbin_mask smears the top bit of n over all lower positions: bit i of the result is bit log2 n of n,
   seen through the shift by log2 n - i, which is one of 0..6 as long as n < 128 *)
Lemma pow_nbin_mask_ones n : 0 < n < 128 -> pow_nbin_mask n = Z.ones (Z.log2 n + 1).
Proof.
  intros Hn. pose proof (Z.log2_nonneg n) as H0.
  assert (HL : Z.log2 n < 7) by (apply Z.log2_lt_pow2; lia).
  apply Z.bits_inj'. intros i Hi. unfold pow_nbin_mask.
  rewrite !Z.lor_spec, !Z.shiftr_spec, Z.testbit_ones_nonneg by lia.
  destruct (i <? Z.log2 n + 1) eqn:E.
  - pose proof (Z.bit_log2 n ltac:(lia)) as B.
    assert (K : Z.log2 n = i \/ Z.log2 n = i + 1 \/ Z.log2 n = i + 2 \/ Z.log2 n = i + 3 \/ Z.log2 n = i + 4
                \/ Z.log2 n = i + 5 \/ Z.log2 n = i + 6) by lia.
    repeat destruct K as [K|K]; rewrite K in B; rewrite B, ?orb_true_r; reflexivity.
  - rewrite !Z.bits_above_log2 by lia. reflexivity.
Qed.

Lemma spec_s_range m t3 n : 0 < n -> 0 <= spec_s m t3 n < n.
Proof.
  intros Hn. unfold spec_s. cbv zeta.
  assert (Hp : 0 < 2 ^ (Z.log2 n + 1)) by (apply Z.pow_pos_nonneg; pose proof (Z.log2_nonneg n); lia).
  pose proof (Z.mod_pos_bound m _ Hp). pose proof (Z.mod_pos_bound (m mod 2 ^ (Z.log2 n + 1) + t3 mod 2 ^ (Z.log2 n + 1)) n Hn).
  destruct (_ <? n) eqn:E; lia.
Qed.

(* with the mask 2^NBIN - 1 the C and Python `&` are the standard's `mod 2^NBIN`, for every m and t3 *)
Lemma s_eq m t3 n : 1 <= n <= 64 -> c_s m t3 n = spec_s m t3 n /\ py_s m t3 n = spec_s m t3 n.
Proof.
  intros Hn. pose proof (Z.log2_nonneg n) as H0. unfold c_s, py_s, spec_s. cbv zeta.
  rewrite pow_nbin_mask_ones, !Z.land_ones by lia.
  assert (Hp : 0 < 2 ^ (Z.log2 n + 1)) by (apply Z.pow_pos_nonneg; lia).
  pose proof (Z.mod_pos_bound m _ Hp). pose proof (Z.mod_pos_bound t3 _ Hp).
  rewrite Z.rem_mod_nonneg by lia. split; reflexivity.
Qed.

Lemma nthZ_some l i : 0 <= i < Z.of_nat (length l) -> exists v, nthZ l i = Some v /\ nth_error l (Z.to_nat i) = Some v.
Proof.
  intros Hi. unfold nthZ. destruct (i <? 0) eqn:E; [lia|].
  destruct (nth_error l (Z.to_nat i)) as [v|] eqn:En; [eauto|]. apply nth_error_None in En. lia.
Qed.

Lemma land63 x : Z.land x 63 = x mod 64.
Proof. exact (Z.land_ones x 6 ltac:(lia)). Qed.

Lemma py_spec hsn maio n fn : 1 <= n <= 64 -> hop_py hsn maio n fn = hop_spec hsn maio n fn.
Proof.
  intros Hn. unfold hop_py, hop_spec, py_fn2gsm_time.
  rewrite tab_py, land63.
  destruct (hsn =? 0); [reflexivity|].
  destruct (nthZ _ _) as [rn|]; [|reflexivity].
  rewrite (proj2 (s_eq _ _ n Hn)). reflexivity.
Qed.

(* the firmware's truncating `%` needs non-negative operands to agree *)
Lemma c_decomp_spec hsn maio n fn : 0 <= maio -> 1 <= n <= 64 -> 0 <= fn ->
  hop_c (decomp fn) hsn maio n = hop_spec hsn maio n fn.
Proof.
  intros Hm Hn Hf. unfold hop_c, hop_spec, decomp. cbn [g_fn g_t1 g_t2 g_t3].
  rewrite tab_c, land63.
  destruct (hsn =? 0); [rewrite Z.rem_mod_nonneg by lia; reflexivity|].
  destruct (nthZ _ _) as [rn|]; [|reflexivity].
  rewrite (proj1 (s_eq _ _ n Hn)).
  pose proof (spec_s_range (fn mod 26 + rn) (fn mod 51) n ltac:(lia)).
  rewrite Z.rem_mod_nonneg by lia. reflexivity.
Qed.

(* the standard's table index HSN xor T1R + T3 stays inside RNTABLE, so a MAI always exists *)
Lemma rn_index hsn fn : 0 <= hsn < 64 ->
  exists rn, nthZ spec_rntable (Z.lxor hsn ((fn / 1326) mod 64) + fn mod 51) = Some rn.
Proof.
  intros Hh. pose proof (lxor_lt hsn ((fn / 1326) mod 64) 6 Hh (Z.mod_pos_bound _ 64 eq_refl)) as Hx.
  pose proof (Z.mod_pos_bound fn 51 eq_refl) as H3.
  destruct (nthZ_some spec_rntable (Z.lxor hsn ((fn / 1326) mod 64) + fn mod 51)) as [rn [E _]]; [|eauto].
  change (Z.of_nat (length spec_rntable)) with 114. lia.
Qed.

Lemma spec_total hsn maio n fn : 0 <= hsn < 64 -> 0 < n ->
  exists mai, hop_spec hsn maio n fn = Some mai /\ 0 <= mai < n.
Proof.
  intros Hh Hn. unfold hop_spec. cbv zeta. destruct (rn_index hsn fn Hh) as [rn ->].
  destruct (hsn =? 0); eexists; (split; [reflexivity|apply Z.mod_pos_bound; exact Hn]).
Qed.

(* the same for the simulator, for a table of any length n > 0 (py_spec covers n <= 64 only) *)
Lemma py_total hsn maio n fn : 0 <= hsn < 64 -> 0 < n ->
  exists mai, hop_py hsn maio n fn = Some mai /\ 0 <= mai < n.
Proof.
  intros Hh Hn. unfold hop_py, py_fn2gsm_time. rewrite tab_py, land63.
  change (26 * 51) with 1326. destruct (rn_index hsn fn Hh) as [rn ->].
  destruct (hsn =? 0); eexists; (split; [reflexivity|apply Z.mod_pos_bound; exact Hn]).
Qed.

Lemma c_spec hsn maio n fn : 0 <= hsn < 64 -> 0 <= maio -> 1 <= n <= 64 -> 0 <= fn < 2715648 ->
  hop_c (fn2gsmtime fn) hsn maio n = hop_spec hsn maio n fn
  /\ exists mai, hop_spec hsn maio n fn = Some mai /\ 0 <= mai < n.
Proof.
  intros Hh Hm Hn Hf. rewrite fn2gsmtime_decomp by exact Hf.
  split; [apply c_decomp_spec; lia | apply spec_total; lia].
Qed.

(* the channel is MA[MAI]: pick never leaves the mobile allocation when 0 <= mai < |ma| *)
Lemma pick_in ma mai : 0 <= mai < Z.of_nat (length ma) -> exists a, pick ma (Some mai) = [a] /\ nth_error ma (Z.to_nat mai) = Some a.
Proof. intros Hm. destruct (nthZ_some ma mai Hm) as [a [E En]]. exists a. unfold pick. rewrite E. auto. Qed.

(* non-vacuity: a case that takes the deviation branch M' >= N *)
Example deviation_branch : hop_spec 49 0 56 1868089 = Some 14 /\ hop_c (fn2gsmtime 1868089) 49 0 56 = Some 14 /\ hop_py 49 0 56 1868089 = Some 14.
Proof. vm_compute. repeat split; reflexivity. Qed.

Lemma c_pick hsn maio fn ma : 0 <= hsn < 64 -> 0 <= maio -> (1 <= length ma <= 64)%nat -> 0 <= fn < 2715648 ->
  exists mai a, hop_c (fn2gsmtime fn) hsn maio (Z.of_nat (length ma)) = Some mai
    /\ hop_spec hsn maio (Z.of_nat (length ma)) fn = Some mai /\ 0 <= mai < Z.of_nat (length ma)
    /\ nth_error ma (Z.to_nat mai) = Some a /\ pick ma (Some mai) = [a].
Proof.
  intros Hh Hm Hl Hf.
  destruct (c_spec hsn maio (Z.of_nat (length ma)) fn Hh Hm ltac:(lia) Hf) as [Ec [mai [Es Hmai]]].
  destruct (pick_in ma mai Hmai) as [a [Ep En]].
  exists mai, a. rewrite Ec. auto.
Qed.

Lemma py_eq_c_ma hsn maio fn ma : 0 <= hsn < 64 -> 0 <= maio -> (1 <= length ma <= 64)%nat -> 0 <= fn < 2715648 ->
  pick ma (hop_py hsn maio (Z.of_nat (length ma)) fn) = pick ma (hop_c (fn2gsmtime fn) hsn maio (Z.of_nat (length ma)))
  /\ exists mai a, hop_spec hsn maio (Z.of_nat (length ma)) fn = Some mai /\ nth_error ma (Z.to_nat mai) = Some a
                   /\ pick ma (hop_py hsn maio (Z.of_nat (length ma)) fn) = (a :: nil).
Proof.
  intros Hh Hm Hl Hf. destruct (c_pick hsn maio fn ma Hh Hm Hl Hf) as (mai & a & Ec & Es & _ & En & Ep).
  rewrite py_spec, Ec, Es by lia. split; [reflexivity|]. exists mai, a. auto.
Qed.
