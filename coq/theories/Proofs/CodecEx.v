(* C16: non-vacuity examples - one definition that uses every construct (MSB and LSB bit-field sets with a fixed
   value, spare bits and padding bits; little-endian signed integer with offset and multiplier; optional table-length
   buffer keyed on bit-fields; spare octet; nested envelope with a rest buffer; sequence of TLV-like items). *)
From Coq Require Import ZArith List Lia.
From OBB Require Import Model.Codec Proofs.CodecInt Proofs.CodecBits Proofs.CodecRT Proofs.CodecDE.
Import ListNotations.
Open Scope Z_scope.

Definition ex_def : list field :=
 [ FBits LRest PAlways false [BitF (Some 0%nat) 4 (Some 2); BitF None 1 None; BitF (Some 1%nat) 3 None];
   FUint 2 (LFix 2) PAlways true true (-10) 3;
   FBits (LFix 2) PAlways true [BitF (Some 3%nat) 1 None; BitF (Some 4%nat) 4 None; BitF (Some 5%nat) 7 None];
   FBuf 6 (LTab 4 [(0,2%nat);(1,3%nat)]) (PTab 3 [(0,true);(1,false)]);
   FSpare (LFix 1) PAlways 171;
   FEnv 7 (LFix 3) PAlways true [FUint 0 (LFix 1) PAlways false false 0 1; FBuf 1 LRest PAlways];
   FSeq 8 LRest PAlways [FUint 0 (LFix 1) PAlways false false 0 1; FBuf 1 (LTab 0 [(1,1%nat);(2,2%nat)]) PAlways] ].
(* a user dict: different key order, no value for the fixed field, an over-wide value 5 + 3*8 for the 3-bit field 1 *)
Definition ex_in : env :=
 [(8%nat, VList [VDict [(0%nat, VInt 2); (1%nat, VBytes [7;7])]; VDict [(1%nat, VBytes [6]); (0%nat, VInt 1)]]);
  (1%nat, VInt 29); (2%nat, VInt (-1000)); (3%nat, VInt 0); (4%nat, VInt 1); (5%nat, VInt 100); (6%nat, VBytes [1;2;3]);
  (7%nat, VDict [(0%nat, VInt 200); (1%nat, VBytes [9;8])])].
Definition ex_val : env :=
 [(0%nat, VInt 2); (1%nat, VInt 5); (2%nat, VInt (-1000)); (5%nat, VInt 100); (4%nat, VInt 1); (3%nat, VInt 0);
  (6%nat, VBytes [1;2;3]); (7%nat, VDict [(0%nat, VInt 200); (1%nat, VBytes [9;8])]);
  (8%nat, VList [VDict [(0%nat, VInt 2); (1%nat, VBytes [7;7])]; VDict [(0%nat, VInt 1); (1%nat, VBytes [6])]])].
Definition ex_bytes : list Z := [37; 182; 254; 200; 32; 1; 2; 3; 171; 200; 9; 8; 2; 7; 7; 1; 6].

Lemma ex_bytes_ok : bytes_ok ex_bytes.
Proof. unfold ex_bytes. repeat constructor; lia. Qed.

(* the hypothesis of the round-trip theorem is met by this message: whatever decodes, fits *)
Lemma ex_all :
  wfb ex_def = true /\ proto_ok ex_def = true /\ seq_ok ex_def = true /\ fits_top ex_def ex_val ex_val 17 /\
  encode ex_def ex_in = Ok ex_bytes /\ encode ex_def ex_val = Ok ex_bytes /\ decode true ex_def ex_bytes = Ok (ex_val, 17%nat).
Proof.
  assert (Hwf : wfb ex_def = true) by reflexivity.
  assert (Hdec : decode true ex_def ex_bytes = Ok (ex_val, 17%nat)) by (vm_compute; reflexivity).
  destruct (dec_enc_top true ex_def ex_bytes ex_val 17 Hwf ex_bytes_ok Hdec) as [_ [Hf [Hnd _]]].
  split; [exact Hwf|]. split; [reflexivity|]. split; [reflexivity|]. split; [exact (conj Hf Hnd)|].
  split; [vm_compute; reflexivity|]. split; [vm_compute; reflexivity|exact Hdec].
Qed.

(* a spare-free definition (every consumed bit is looked at): LSB bit-field set filling 2 octets, signed LE integer, nested
   envelope, sequence - for the literal re-encoding theorem *)
Definition ex2_def : list field :=
 [ FBits LRest PAlways true [BitF (Some 0%nat) 3 None; BitF (Some 1%nat) 5 (Some 17); BitF (Some 2%nat) 8 None];
   FUint 3 (LFix 3) PAlways true true 7 (-2);
   FEnv 4 (LTab 0 [(5, 2%nat); (6, 3%nat)]) PAlways true [FBuf 0 LRest PAlways];
   FSeq 5 LRest PAlways [FUint 0 (LFix 1) PAlways false false 0 1; FBuf 1 (LTab 0 [(1,1%nat);(2,2%nat)]) PAlways] ].
Definition ex2_bytes : list Z := [171; 141; 1; 2; 255; 9; 9; 2; 7; 7; 1; 6].
Definition ex2_val : env :=
 [(2%nat, VInt 171); (1%nat, VInt 17); (0%nat, VInt 5); (3%nat, VInt 130053); (4%nat, VDict [(0%nat, VBytes [9; 9])]);
  (5%nat, VList [VDict [(0%nat, VInt 2); (1%nat, VBytes [7; 7])]; VDict [(0%nat, VInt 1); (1%nat, VBytes [6])]])].
Lemma ex2_all : wfb ex2_def = true /\ spare_free ex2_def = true /\ Forall (fun o => 0 <= o < 256) ex2_bytes /\
  decode true ex2_def ex2_bytes = Ok (ex2_val, 12%nat) /\ encode ex2_def ex2_val = Ok ex2_bytes.
Proof.
  split; [reflexivity|]. split; [reflexivity|]. split; [unfold ex2_bytes; repeat constructor; lia|].
  split; vm_compute; reflexivity.
Qed.

(* witness of the refuted strengthening c16_varlen_buf_unchecked_refuted: m = 1 selects 3 octets, a 2-octet buffer encodes
   without error, and the encoding does not decode *)
Definition vl_def : list field :=
  [FUint 0 (LFix 1) PAlways false false 0 1; FBuf 1 (LTab 0 [(0, 2%nat); (1, 3%nat)]) PAlways].
Definition vl_val : env := [(0%nat, VInt 1); (1%nat, VBytes [1; 2])].
Lemma varlen_buf_unchecked_refuted :
  wfb vl_def = true /\ get_len (LTab 0 [(0, 2%nat); (1, 3%nat)]) vl_val 0 = Ok 3%nat /\
  encode vl_def vl_val = Ok [1; 1; 2] /\ decode true vl_def [1; 1; 2] = DecodeErr 0 /\
  ~ (forall fs e nm l p b n, wfb fs = true -> In (FBuf nm l p) fs -> get_pres p e = Ok true -> lookup nm e = Some (VBytes b) ->
       get_len l e 0 = Ok n -> length b <> n -> exists c, encode fs e = EncodeErr c).
Proof.
  split; [vm_compute; reflexivity|]. split; [vm_compute; reflexivity|]. split; [vm_compute; reflexivity|]. split; [vm_compute; reflexivity|].
  intros H. destruct (H vl_def vl_val 1%nat (LTab 0 [(0, 2%nat); (1, 3%nat)]) PAlways [1; 2] 3%nat) as [c Hc];
    try reflexivity; [right; left; reflexivity|cbn; lia|]. vm_compute in Hc. discriminate.
Qed.
