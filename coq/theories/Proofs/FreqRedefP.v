(* Frequency redefinition (C07): after l1s_freq_cmd the firmware tunes to the channel TS 45.002 6.2.3 selects from the STAGED
   parameters; staging alone does not change the channel in use. *)
From Coq Require Import ZArith List.
From OBB Require Import Model.GsmTime Model.Hopping Proofs.HoppingP Model.FreqRedef.
Import ListNotations.
Open Scope Z_scope.

(* a hopping set read by rfch_get_params: MA[MAI] with the standard's MAI *)
Lemma set_arfcn_hop hsn maio ma fn : 0 <= hsn < 64 -> 0 <= maio -> (1 <= length ma <= 64)%nat -> 0 <= fn < 2715648 ->
  exists mai a, hop_spec hsn maio (Z.of_nat (length ma)) fn = Some mai /\ 0 <= mai < Z.of_nat (length ma)
                /\ nth_error ma (Z.to_nat mai) = Some a /\ set_arfcn (Hop hsn maio ma) fn = a.
Proof.
  intros Hh Hm Hl Hf. destruct (c_pick hsn maio fn ma Hh Hm Hl Hf) as (mai & a & Ec & Es & Hmai & En & Ep).
  exists mai, a. unfold set_arfcn. rewrite Ec, Ep. auto.
Qed.

(* old MA of 3 channels, staged MA of 5 channels: the frames whose MAI is 3 or 4 use the NEW entries 43 / 44 (no old entry exists
   there), the frames with MAI 0..2 the new 40..42 and not the old 10..12; until the command the old channel is used *)
Definition ex_old := {| act := Hop 0 0 [10; 11; 12]; act_tsc := 1; st := Hop 0 0 [10; 11; 12]; st_tsc := 1 |}.
Definition ex_staged := stage ex_old (Hop 17 2 [40; 41; 42; 43; 44]) 5.
Example redef_n5 :
  map (ded_arfcn ex_staged) [0; 1; 2; 3; 7; 8] = [10; 11; 12; 10; 11; 12]
  /\ map (hop_spec 17 2 5) [0; 1; 2; 3; 7; 8] = [Some 4; Some 3; Some 0; Some 2; Some 3; Some 2]
  /\ map (ded_arfcn (freq_cmd ex_staged)) [0; 1; 2; 3; 7; 8] = [44; 43; 40; 42; 43; 42]
  /\ ded_tsc ex_staged = 1 /\ ded_tsc (freq_cmd ex_staged) = 5.
Proof. vm_compute. repeat split; reflexivity. Qed.
