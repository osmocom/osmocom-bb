(* Totality of the capture-file reader on ARBITRARY file content (used by C14): no step of _seek2msg / _parse_msg /
   parse_msg / parse_all can raise, and the read loop ends within the fuel |file| + 1.  No hypothesis on the octets
   (not even 0 <= b < 256).  The message parser sits under the bare 'except:' (parse_body maps every non-Ok to OFalse),
   so its own totality is not needed here. *)
From Coq Require Import ZArith List Bool Lia.
From OBB Require Import Gen.TrxdConst Model.Trxd Model.Dump.
Import ListNotations.
Open Scope Z_scope.

(* a header of exactly HDR_LENGTH = 3 octets: hdr[1:3] has the 2 octets struct.unpack(">H") needs *)
Lemma parse_hdr_total hdr : length hdr = hl -> exists r, parse_hdr hdr = Ok r.
Proof.
  change hl with 3%nat. intros H. destruct hdr as [|a [|b [|c [|d r]]]]; try discriminate H.
  unfold parse_hdr, slice. cbn [skipn firstn Nat.sub bind].
  destruct (a =? dump_tag_tx); [eauto|]. destruct (a =? dump_tag_rx); eauto.
Qed.

Lemma seek_total f : forall n pos, exists r, seek_loop f n pos = Ok r.
Proof.
  induction n as [|k IH]; intros pos; [eexists; reflexivity|].
  cbn [seek_loop]. destruct (Nat.eqb (length (fread f pos hl)) hl) eqn:E; cbn [negb]; [|eauto].
  apply Nat.eqb_eq in E. destruct (parse_hdr_total _ E) as [[[b len]|] ->]; cbn [bind]; [apply IH|eauto].
Qed.

(* _parse_msg never raises; when it returns a message or False it has consumed a whole header that lies inside the file *)
Lemma parse_one_total f pos : exists o p, parse_one f pos = Ok (o, p) /\ (o <> ONone -> (pos + 3 <= p)%nat /\ (pos + 3 <= length f)%nat).
Proof.
  unfold parse_one. cbv zeta. destruct (Nat.eqb (length (fread f pos hl)) hl) eqn:E; cbn [negb].
  - apply Nat.eqb_eq in E.
    assert (Hl : (pos + 3 <= length f)%nat)
      by (pose proof E as E'; unfold fread in E'; rewrite firstn_length, skipn_length in E'; change hl with 3%nat in E'; lia).
    destruct (parse_hdr_total _ E) as [[[b len]|] ->]; cbn [bind].
    + destruct (negb (Nat.eqb _ len)); do 2 eexists; (split; [reflexivity|]); [congruence|].
      intros _. rewrite E. change hl with 3%nat. split; lia.
    + do 2 eexists. split; [reflexivity|congruence].
  - do 2 eexists. split; [reflexivity|congruence].
Qed.

Lemma pa_total f count : forall fuel pos acc, (length f < fuel + pos)%nat -> (0 < fuel)%nat -> exists l, pa_loop fuel f pos count acc = Ok (PList l).
Proof.
  induction fuel as [|k IH]; intros pos acc Hf Hpos; [lia|].
  cbn [pa_loop]. destruct (parse_one_total f pos) as [o [p [-> Hp]]]. cbn [bind].
  destruct o as [m| |].
  - destruct (Hp ltac:(discriminate)) as [A B]. destruct (count_hit count (length (acc ++ [m]))); [eauto|].
    apply IH; lia.
  - eauto.
  - destruct (Hp ltac:(discriminate)) as [A B]. apply IH; lia.
Qed.

Theorem parse_all_total f skip count : exists r, parse_all f skip count = Ok r /\ r <> POutOfFuel.
Proof.
  unfold parse_all. destruct skip as [s|].
  - unfold seek2msg. destruct (seek_total f (Z.to_nat s) 0) as [[pos|] ->]; cbn [bind].
    + destruct (pa_total f count (S (length f)) pos [] ltac:(lia) ltac:(lia)) as [l ->]. eexists. split; [reflexivity|discriminate].
    + eexists. split; [reflexivity|discriminate].
  - destruct (pa_total f count (S (length f)) 0%nat [] ltac:(lia) ltac:(lia)) as [l ->]. eexists. split; [reflexivity|discriminate].
Qed.

Theorem parse_msg_total f idx : exists o, parse_msg f idx = Ok o.
Proof.
  unfold parse_msg, seek2msg. destruct (seek_total f (Z.to_nat idx) 0) as [[pos|] ->]; cbn [bind]; [|eauto].
  destruct (parse_one_total f pos) as [o [p [-> _]]]. cbn [bind fst]. eauto.
Qed.

(* the form asked for by C14: arbitrary content, any skip / count / index *)
Theorem dump_total : forall (f : list Z) (skip count : option Z) (idx : Z),
  parse_all f skip count <> Crash /\ parse_all f skip count <> VErr /\ parse_all f skip count <> Ok POutOfFuel /\
  parse_msg f idx <> Crash /\ parse_msg f idx <> VErr.
Proof.
  intros f skip count idx. destruct (parse_all_total f skip count) as [r [-> Hr]]. destruct (parse_msg_total f idx) as [o ->].
  repeat split; try discriminate. intros H. injection H as H. exact (Hr H).
Qed.
Print Assumptions dump_total.
