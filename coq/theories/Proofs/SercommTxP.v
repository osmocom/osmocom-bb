(* C06 - transmit side of sercomm: whole frames, non-preemptive priority (lowest DLCI first, chosen at frame
   boundaries only), FIFO and exactly-once per DLCI; end to end Tx -> Rx.  The proofs go through [future t], the
   octets repeated pulls yield from t, and [tx_inv], which relates the state after a history to what was sent. *)
From Coq Require Import ZArith List Bool Lia ZifyBool.
From OBB Require Import Base.Lists Gen.SercommConst Model.Sercomm Proofs.SercommP.
Import ListNotations.
Open Scope Z_scope.

Lemma enq_length qs : forall n m, length (enq qs n m) = length qs.
Proof. induction qs as [|q qs IH]; intros [|n] m; cbn [enq length]; auto. Qed.

Lemma enq_nth qs : forall n j m, (n < length qs)%nat ->
  nth j (enq qs n m) [] = nth j qs [] ++ (if (j =? n)%nat then [m] else []).
Proof.
  induction qs as [|q qs IH]; intros [|n] [|j] m H; cbn [length] in H; try lia; cbn [enq nth Nat.eqb].
  - reflexivity.
  - symmetry. apply app_nil_r.
  - symmetry. apply app_nil_r.
  - apply IH. lia.
Qed.

Lemma dequeue_none qs : dequeue qs = None -> (forall i, nth i qs [] = []) /\ concat qs = [].
Proof.
  induction qs as [|q qs IH]; intros H.
  - split; [intros [|i]; reflexivity|reflexivity].
  - cbn [dequeue] in H. destruct q as [|m q]; [|discriminate].
    destruct (dequeue qs) as [[m1 r1]|]; [discriminate|]. destruct (IH eq_refl) as [I1 I2].
    split; [intros [|i]; [reflexivity|apply I1]|exact I2].
Qed.

Lemma dequeue_some qs : forall m qs', dequeue qs = Some (m, qs') ->
  concat qs = m :: concat qs' /\ length qs' = length qs /\
  exists i, (i < length qs)%nat /\ nth i qs [] = m :: nth i qs' [] /\
            (forall j, (j < i)%nat -> nth j qs [] = []) /\
            (forall j, j <> i -> nth j qs' [] = nth j qs []).
Proof.
  induction qs as [|q qs IH]; intros m qs' H; [discriminate|].
  cbn [dequeue] in H. destruct q as [|m0 q].
  - destruct (dequeue qs) as [[m1 r1]|] eqn:E; [|discriminate]. inversion H; subst m1 qs'.
    destruct (IH m r1 eq_refl) as (Hc & Hlen & i & Hi & Hn & Hlo & Hot).
    split; [exact Hc|]. split; [cbn [length]; congruence|].
    exists (S i). cbn [length nth]. split; [lia|]. split; [exact Hn|]. split.
    + intros [|j] Hj; [reflexivity|]. apply Hlo. lia.
    + intros [|j] Hj; [reflexivity|]. apply Hot. congruence.
  - inversion H; subst m0 qs'. split; [reflexivity|]. split; [reflexivity|].
    exists 0%nat. cbn [length nth]. split; [lia|]. split; [reflexivity|].
    split; [intros j Hj; lia|]. intros [|j] Hj; [congruence|reflexivity].
Qed.

(* the headroom of sercomm_alloc_msgb always takes the two header octets *)
Lemma sendmsg_spec t d p : sendmsg t d p =
  if (0 <=? d) && (d <? DLCI_MAX)
  then Some {| queues := enq (queues t) (Z.to_nat d) (hdr d p); cur := cur t; tstate := tstate t |}
  else None.
Proof. reflexivity. Qed.

(* tx.state == RX_ST_ESCAPE only while a flipped octet is waiting at next_char *)
Definition tx_ok (t : tx) : Prop :=
  match cur t with
  | None => tstate t <> ESCAPE
  | Some [] => tstate t <> ESCAPE
  | Some (_ :: _) => True
  end.

Lemma is_escape_false s : s <> ESCAPE -> is_escape s = false.
Proof. destruct s; intros H; try reflexivity. congruence. Qed.

Lemma remaining_idle t : cur t = None -> remaining t = [].
Proof. intros H. unfold remaining. rewrite H. reflexivity. Qed.

Lemma pull_busy t l : cur t = Some l -> tx_ok t ->
  exists c t', pull t = (PCh c, t') /\ remaining t = c :: remaining t' /\ queues t' = queues t /\ tx_ok t'.
Proof.
  destruct t as [qs cu ts]. cbn [cur]. intros -> Hok. unfold tx_ok in Hok. cbn [cur tstate] in Hok.
  unfold pull, remaining. cbn [cur tstate queues].
  destruct (is_escape ts) eqn:Ee.
  - destruct l as [|b r].
    + destruct ts; try discriminate. congruence.
    + eexists _, _. split; [reflexivity|]. cbn [cur tstate queues is_escape]. repeat split.
      unfold tx_ok. cbn [cur tstate]. destruct r; [discriminate|exact I].
  - destruct l as [|b r].
    + eexists _, _. split; [reflexivity|]. cbn [cur tstate queues escape app]. repeat split.
      unfold tx_ok. cbn [cur tstate]. exact Hok.
    + destruct (needs_esc b) eqn:En.
      * eexists _, _. split; [reflexivity|]. cbn [cur tstate queues is_escape escape]. rewrite En.
        repeat split.
      * eexists _, _. split; [reflexivity|]. cbn [cur tstate queues escape]. rewrite En, Ee.
        repeat split. unfold tx_ok. cbn [cur tstate]. destruct r; [|exact I].
        destruct ts; try discriminate.
Qed.

Lemma pull_idle t : cur t = None -> dequeue (queues t) = None -> pull t = (PNone, t).
Proof. intros Hc Hd. unfold pull. rewrite Hc, Hd. reflexivity. Qed.

Lemma pull_start t m qs' : tx_ok t -> cur t = None -> dequeue (queues t) = Some (m, qs') ->
  exists t', pull t = (PCh FLAG, t') /\ cur t' = Some m /\ queues t' = qs' /\
             remaining t' = escape m ++ [FLAG] /\ tx_ok t'.
Proof.
  intros Hok Hc Hd. unfold tx_ok in Hok. rewrite Hc in Hok. unfold pull. rewrite Hc, Hd.
  eexists. split; [reflexivity|]. unfold remaining, tx_ok. cbn [cur tstate queues].
  rewrite (is_escape_false _ Hok). repeat split. destruct m; [exact Hok|exact I].
Qed.

(* with no frame in transmission a pull takes the head of the lowest non-empty queue *)
Lemma pull_idle_cases t n : tx_ok t -> length (queues t) = n -> cur t = None ->
  (pull t = (PNone, t) /\ forall i, nth i (queues t) [] = []) \/
  (exists i m t', pull t = (PCh FLAG, t') /\ cur t' = Some m /\ (i < n)%nat /\
                  nth i (queues t) [] = m :: nth i (queues t') [] /\
                  (forall j, (j < i)%nat -> nth j (queues t) [] = []) /\
                  (forall j, j <> i -> nth j (queues t') [] = nth j (queues t) [])).
Proof.
  intros Hok <- Hc. destruct (dequeue (queues t)) as [[m qs']|] eqn:Ed.
  - right. destruct (dequeue_some _ _ _ Ed) as (_ & _ & i & H).
    destruct (pull_start t m qs' Hok Hc Ed) as (t' & E & Hm & <- & _). exists i, m, t'. auto.
  - left. split; [apply pull_idle; assumption|apply dequeue_none, Ed].
Qed.

Lemma pull_busy_queues t : tx_ok t -> forall l, cur t = Some l ->
  exists c t', pull t = (PCh c, t') /\ remaining t = c :: remaining t' /\ queues t' = queues t.
Proof. intros Hok l Hl. destruct (pull_busy t l Hl Hok) as (c & t' & H1 & H2 & H3 & _). eauto. Qed.

Lemma sendmsg_defined t d p :
  (0 <= d < DLCI_MAX -> exists t', sendmsg t d p = Some t') /\ (d < 0 \/ DLCI_MAX <= d -> sendmsg t d p = None).
Proof.
  rewrite sendmsg_spec. split; intros H.
  - replace ((0 <=? d) && (d <? DLCI_MAX)) with true by lia. eauto.
  - replace ((0 <=? d) && (d <? DLCI_MAX)) with false by lia. reflexivity.
Qed.

Definition future (t : tx) : list Z := remaining t ++ concat (map frame_of (concat (queues t))).

Lemma pull_future t : tx_ok t ->
  match future t with
  | [] => pull t = (PNone, t)
  | c :: f => exists t', pull t = (PCh c, t') /\ future t' = f /\ tx_ok t'
  end.
Proof.
  intros Hok. unfold future. destruct (cur t) as [l|] eqn:Ec.
  - destruct (pull_busy t l Ec Hok) as (c & t' & E & Hr & Hqs & Hok'). rewrite Hr. cbn [app].
    exists t'. rewrite Hqs. auto.
  - rewrite (remaining_idle t Ec). cbn [app]. destruct (dequeue (queues t)) as [[m qs']|] eqn:Ed.
    + destruct (pull_start t m qs' Hok Ec Ed) as (t' & E & _ & Hqs & Hr & Hok').
      rewrite (proj1 (dequeue_some _ _ _ Ed)). cbn [map concat]. unfold frame_of at 1. cbn [app].
      exists t'. rewrite Hqs, Hr. auto.
    + rewrite (proj2 (dequeue_none _ Ed)). apply pull_idle; assumption.
Qed.

Lemma pull_no_oob t : tx_ok t -> fst (pull t) <> POOB.
Proof.
  intros Hok. pose proof (pull_future t Hok) as Hp.
  destruct (future t); [rewrite Hp|destruct Hp as (t' & -> & _)]; discriminate.
Qed.

Lemma future_nil_pull t : tx_ok t -> future t = [] -> pull t = (PNone, t).
Proof. intros Hok Hf. pose proof (pull_future t Hok) as Hp. rewrite Hf in Hp. exact Hp. Qed.

Lemma pull_none_future t : tx_ok t -> pull t = (PNone, t) -> future t = [].
Proof.
  intros Hok Hp. pose proof (pull_future t Hok) as Hf. destruct (future t); [reflexivity|].
  destruct Hf as (t' & E & _). rewrite E in Hp. discriminate.
Qed.

Lemma tx_run_cons t o h : tx_run t (o :: h) =
  (fst (tx_run (fst (tx_step t o)) h), snd (tx_step t o) ++ snd (tx_run (fst (tx_step t o)) h)).
Proof. cbn [tx_run]. destruct (tx_step t o) as [t1 o1]. cbn [fst snd]. destruct (tx_run t1 h). reflexivity. Qed.

Lemma tx_run_app h1 : forall t h2, tx_run t (h1 ++ h2) =
  (fst (tx_run (fst (tx_run t h1)) h2), snd (tx_run t h1) ++ snd (tx_run (fst (tx_run t h1)) h2)).
Proof.
  induction h1 as [|o h1 IH]; intros t h2; cbn [app].
  - cbn [tx_run fst snd app]. destruct (tx_run t h2). reflexivity.
  - rewrite !tx_run_cons, IH. cbn [fst snd]. rewrite app_assoc. reflexivity.
Qed.

Lemma pulls_future n : forall t, tx_ok t ->
  snd (tx_run t (repeat Pull n)) = firstn n (future t) /\
  future (fst (tx_run t (repeat Pull n))) = skipn n (future t) /\
  tx_ok (fst (tx_run t (repeat Pull n))).
Proof.
  induction n as [|n IH]; intros t Hok; [repeat split; exact Hok|].
  cbn [repeat]. rewrite tx_run_cons. cbn [tx_step fst snd]. pose proof (pull_future t Hok) as Hp.
  destruct (future t) as [|c f] eqn:Ef.
  - rewrite Hp. cbn [fst snd app]. destruct (IH t Hok) as (I1 & I2 & I3). rewrite Ef in I1, I2.
    rewrite I1, I2, firstn_nil, skipn_nil. auto.
  - destruct Hp as (t' & E & <- & Hok'). rewrite E. cbn [fst snd app firstn skipn].
    destruct (IH t' Hok') as (I1 & I2 & I3). rewrite I1. auto.
Qed.

Lemma pulls_all n t : tx_ok t -> (length (future t) <= n)%nat -> snd (tx_run t (repeat Pull n)) = future t.
Proof. intros Hok Hn. rewrite (proj1 (pulls_future n t Hok)). apply firstn_all2, Hn. Qed.

Definition NQ : nat := Z.to_nat DLCI_MAX.

(* per DLCI: the started messages, then the queued ones, are the sent ones in sending order *)
Definition accounted (sd started : list (Z * list Z)) (qs : list (list (list Z))) : Prop :=
  forall i, (i < NQ)%nat ->
    map hdr' (filter (on_dlci (Z.of_nat i)) started) ++ nth i qs [] = map hdr' (filter (on_dlci (Z.of_nat i)) sd).

(* sd = messages sent so far, out = octets pulled so far, started = messages whose opening flag was pulled *)
Definition tx_inv (sd : list (Z * list Z)) (t : tx) (out : list Z) (started : list (Z * list Z)) : Prop :=
  tx_ok t /\ length (queues t) = NQ /\
  out ++ remaining t = concat (map frame' started) /\
  accounted sd started (queues t) /\
  (forall x, In x started -> In x sd).

Lemma tx_inv_init : tx_inv [] tx0 [] [].
Proof.
  unfold tx_inv, tx0, tx_ok, remaining. cbn [cur tstate queues]. split; [discriminate|].
  split; [apply repeat_length|]. split; [reflexivity|]. split; [|intros x []].
  intros i _. cbn [filter map app]. apply nth_repeat.
Qed.

Lemma send_keeps t d p : let t' := fst (tx_step t (Send d p)) in
  cur t' = cur t /\ tstate t' = tstate t /\ length (queues t') = length (queues t).
Proof.
  cbn [tx_step fst]. rewrite sendmsg_spec. destruct (_ && _); [|auto].
  cbn [cur tstate queues]. rewrite enq_length. auto.
Qed.

Lemma sendmsg_keeps t d p t' : sendmsg t d p = Some t' ->
  cur t' = cur t /\ tstate t' = tstate t /\ remaining t' = remaining t.
Proof.
  intros H. destruct (send_keeps t d p) as (Hc & Hs & _). cbn [tx_step fst] in Hc, Hs. rewrite H in Hc, Hs.
  unfold remaining. rewrite Hc, Hs. auto.
Qed.

Lemma send_queue t d p i : length (queues t) = NQ -> (i < NQ)%nat ->
  nth i (queues (fst (tx_step t (Send d p)))) [] =
    nth i (queues t) [] ++ (if on_dlci (Z.of_nat i) (d, p) then [hdr d p] else []).
Proof.
  intros Hlen Hi. unfold on_dlci, NQ in *. cbn [tx_step fst]. rewrite sendmsg_spec.
  destruct ((0 <=? d) && (d <? DLCI_MAX)) eqn:Ed; cbn [queues fst].
  - rewrite enq_nth by lia. replace (i =? Z.to_nat d)%nat with (d =? Z.of_nat i) by lia. reflexivity.
  - replace (d =? Z.of_nat i) with false by lia. symmetry. apply app_nil_r.
Qed.

Lemma tx_inv_send sd t out started d p : tx_inv sd t out started ->
  tx_inv (sd ++ [(d, p)]) (fst (tx_step t (Send d p))) out started.
Proof.
  intros (Hok & Hlen & Hout & Hq & Hin). destruct (send_keeps t d p) as (Hc & Hs & Hl).
  unfold tx_inv, tx_ok, remaining. rewrite Hc, Hs, Hl. split; [exact Hok|]. split; [exact Hlen|]. split; [exact Hout|]. split.
  - intros i Hi. rewrite send_queue, filter_snoc by assumption. destruct (on_dlci (Z.of_nat i) (d, p)).
    + rewrite map_app, app_assoc, Hq by exact Hi. reflexivity.
    + rewrite app_nil_r. apply Hq, Hi.
  - intros x Hx. apply in_or_app. left. apply Hin, Hx.
Qed.

Lemma dequeue_sent sd started qs m qs' : length qs = NQ -> accounted sd started qs ->
  dequeue qs = Some (m, qs') ->
  exists x, In x sd /\ hdr' x = m /\ length qs' = NQ /\ accounted sd (started ++ [x]) qs'.
Proof.
  intros Hlen Hq Ed. destruct (dequeue_some _ _ _ Ed) as (_ & Hl' & i & Hi & Hn & _ & Hot).
  rewrite Hlen in Hi. pose proof (Hq i Hi) as Hqi. rewrite Hn in Hqi.
  assert (Hm : In m (map hdr' (filter (on_dlci (Z.of_nat i)) sd))).
  { rewrite <- Hqi. apply in_or_app. right. left. reflexivity. }
  apply in_map_iff in Hm as (x & Hx & Hxin). apply filter_In in Hxin as [Hxsd Hxd].
  exists x. split; [exact Hxsd|]. split; [exact Hx|]. split; [congruence|].
  intros j Hj. rewrite filter_snoc. destruct (Nat.eq_dec j i) as [->|Ej].
  - rewrite Hxd, map_app. cbn [map]. rewrite Hx, <- app_assoc. exact Hqi.
  - unfold on_dlci in Hxd |- *. replace (fst x =? Z.of_nat j) with false by lia.
    rewrite Hot by exact Ej. apply Hq, Hj.
Qed.

Lemma tx_inv_pull sd t out started : tx_inv sd t out started ->
  exists started', tx_inv sd (fst (tx_step t Pull)) (out ++ snd (tx_step t Pull)) started'.
Proof.
  intros (Hok & Hlen & Hout & Hq & Hin). cbn [tx_step]. destruct (cur t) as [l|] eqn:Ec.
  - destruct (pull_busy t l Ec Hok) as (c & t' & E & Hr & Hqs & Hok'). rewrite E. cbn [fst snd].
    exists started. unfold tx_inv. rewrite Hqs, <- app_assoc. cbn [app]. rewrite <- Hr. auto.
  - rewrite (remaining_idle t Ec), app_nil_r in Hout. destruct (dequeue (queues t)) as [[m qs']|] eqn:Ed.
    + destruct (pull_start t m qs' Hok Ec Ed) as (t' & E & _ & Hqs & Hr & Hok'). rewrite E. cbn [fst snd].
      destruct (dequeue_sent sd started _ m qs' Hlen Hq Ed) as (x & Hxsd & Hx & Hl' & Hq').
      exists (started ++ [x]). unfold tx_inv. rewrite Hqs, Hr.
      split; [exact Hok'|]. split; [exact Hl'|]. split; [|split; [exact Hq'|]].
      * rewrite map_app, concat_app, <- Hout, <- Hx, <- app_assoc. cbn [map concat]. rewrite app_nil_r. reflexivity.
      * intros y Hy. apply in_app_or in Hy as [Hy|[<-|[]]]; [apply Hin, Hy|exact Hxsd].
    + rewrite (pull_idle t Ec Ed). cbn [fst snd]. rewrite app_nil_r.
      exists started. unfold tx_inv. rewrite (remaining_idle t Ec), app_nil_r. auto.
Qed.

Lemma sends_app h1 h2 : sends (h1 ++ h2) = sends h1 ++ sends h2.
Proof. induction h1 as [|[d p|] h1 IH]; cbn [app sends]; rewrite ?IH; reflexivity. Qed.

(* every history, whether or not its sends address an existing queue *)
Lemma tx_run_inv h : forall sd t out started, tx_inv sd t out started ->
  exists started', tx_inv (sd ++ sends h) (fst (tx_run t h)) (out ++ snd (tx_run t h)) started'.
Proof.
  induction h as [|o h IH]; intros sd t out started Hinv.
  - exists started. cbn [tx_run sends fst snd]. rewrite !app_nil_r. exact Hinv.
  - rewrite tx_run_cons. cbn [fst snd]. rewrite app_assoc. destruct o as [d p|]; cbn [sends].
    + change ((d, p) :: sends h) with ([(d, p)] ++ sends h). rewrite app_assoc. apply (IH _ _ _ started).
      cbn [tx_step snd]. rewrite app_nil_r. apply tx_inv_send, Hinv.
    + destruct (tx_inv_pull sd t out started Hinv) as (st1 & Hinv1). apply (IH _ _ _ st1), Hinv1.
Qed.

Lemma tx_reach h : exists started, tx_inv (sends h) (fst (tx_run tx0 h)) (snd (tx_run tx0 h)) started.
Proof. exact (tx_run_inv h [] tx0 [] [] tx_inv_init). Qed.

Lemma tx_ok_reach h : tx_ok (fst (tx_run tx0 h)).
Proof. destruct (tx_reach h) as (started & Hok & _). exact Hok. Qed.

Lemma queues_reach h : length (queues (fst (tx_run tx0 h))) = NQ.
Proof. destruct (tx_reach h) as (started & _ & Hlen & _). exact Hlen. Qed.

Lemma pull_refines_frames h :
  exists started,
    snd (tx_run tx0 h) ++ remaining (fst (tx_run tx0 h)) = concat (map frame' started) /\
    (forall d, 0 <= d < DLCI_MAX ->
       map hdr' (filter (on_dlci d) started) ++ qget (queues (fst (tx_run tx0 h))) d = map hdr' (filter (on_dlci d) (sends h))) /\
    (forall x, In x started -> In x (sends h)).
Proof.
  destruct (tx_reach h) as (started & _ & _ & Hout & Hq & Hin).
  exists started. split; [exact Hout|]. split; [|exact Hin].
  intros d Hd. unfold qget. specialize (Hq (Z.to_nat d)). rewrite Z2Nat.id in Hq by lia. apply Hq. unfold NQ. lia.
Qed.

Lemma sends_send_of sd : sends (map send_of sd) = sd.
Proof. induction sd as [|[d p] sd IH]; [reflexivity|]. cbn [map send_of sends fst snd]. rewrite IH. reflexivity. Qed.

Lemma sends_quiet sd : forall t,
  snd (tx_run t (map send_of sd)) = [] /\ remaining (fst (tx_run t (map send_of sd))) = remaining t.
Proof.
  induction sd as [|x sd IH]; intros t; [split; reflexivity|]. cbn [map]. rewrite tx_run_cons. cbn [fst snd].
  destruct (IH (fst (tx_step t (send_of x)))) as [I1 I2]. rewrite I1, I2.
  split; [reflexivity|]. destruct (send_keeps t (fst x) (snd x)) as (Hc & Hs & _).
  change (send_of x) with (Send (fst x) (snd x)). unfold remaining. rewrite Hc, Hs. reflexivity.
Qed.

Lemma batch_future sd : future (fst (tx_run tx0 (map send_of sd))) = concat (map frame' (sorted_by_dlci sd)).
Proof.
  destruct (tx_reach (map send_of sd)) as (started & _ & Hlen & Hout & Hq & _).
  destruct (sends_quiet sd tx0) as [Q1 Q2]. change (remaining tx0) with (@nil Z) in Q2. rewrite sends_send_of in Hq.
  rewrite Q1, Q2 in Hout. destruct started as [|x st]; [|discriminate Hout].
  unfold future. rewrite Q2, <- (map_nth_seq (queues _) []), Hlen. unfold sorted_by_dlci. fold NQ. cbn [app].
  rewrite flat_map_concat_map, !concat_map, !map_map. do 2 f_equal.
  apply map_ext_in. intros i Hi. apply in_seq in Hi. specialize (Hq i). cbn [filter map app] in Hq.
  rewrite Hq, map_map by lia. reflexivity.
Qed.

Lemma batch_order sd n : (length (concat (map frame' (sorted_by_dlci sd))) <= n)%nat ->
  snd (tx_run tx0 (map send_of sd ++ repeat Pull n)) = concat (map frame' (sorted_by_dlci sd)).
Proof.
  intros Hn. rewrite tx_run_app. cbn [snd]. rewrite (proj1 (sends_quiet sd tx0)). cbn [app].
  rewrite <- batch_future in *. apply pulls_all; [apply tx_ok_reach|exact Hn].
Qed.

Lemma end_to_end cap h : 0 < cap -> Forall (valid_msg cap) (sends h) ->
  exists started rest,
    snd (rx_run cap rx0 (snd (tx_run tx0 h))) ++ rest = map rmsg started /\
    (remaining (fst (tx_run tx0 h)) = [] -> rest = []) /\
    (forall d, 0 <= d < DLCI_MAX ->
       map hdr' (filter (on_dlci d) started) ++ qget (queues (fst (tx_run tx0 h))) d = map hdr' (filter (on_dlci d) (sends h))).
Proof.
  intros Hc Hv. destruct (pull_refines_frames h) as (started & Hout & Hq & Hin).
  assert (Hvs : Forall (valid_msg cap) started).
  { rewrite Forall_forall in *. intros x Hx. apply Hv, Hin, Hx. }
  pose proof (rx_frames cap started Hc Hvs) as Hrx. rewrite <- Hout, rx_run_app_snd in Hrx.
  eexists started, _. split; [exact Hrx|]. split; [|exact Hq]. intros Hr. rewrite Hr. reflexivity.
Qed.

Lemma end_to_end_batch cap sd n : 0 < cap -> Forall (valid_msg cap) sd ->
  (length (concat (map frame' (sorted_by_dlci sd))) <= n)%nat ->
  snd (rx_run cap rx0 (snd (tx_run tx0 (map send_of sd ++ repeat Pull n)))) = map rmsg (sorted_by_dlci sd).
Proof. intros Hc Hv Hn. rewrite batch_order by exact Hn. apply rx_sorted; assumption. Qed.

Example batch_example :
  Forall (valid_msg 2048) [(10, [1]); (5, [126; 0]); (10, [2]); (4, []); (5, [125])] /\
  sorted_by_dlci [(10, [1]); (5, [126; 0]); (10, [2]); (4, []); (5, [125])] = [(4, []); (5, [126; 0]); (5, [125]); (10, [1]); (10, [2])] /\
  snd (tx_run tx0 (map send_of [(10, [1]); (5, [126; 0]); (10, [2]); (4, []); (5, [125])] ++ repeat Pull 40)) =
    [126; 4; 3; 126;  126; 5; 3; 125; 94; 125; 32; 126;  126; 5; 3; 125; 93; 126;  126; 10; 3; 1; 126;  126; 10; 3; 2; 126].
Proof.
  split; [|split; vm_compute; reflexivity].
  repeat constructor; vm_compute; congruence.
Qed.

(* a message queued while another is in transmission waits for the closing flag, even with a lower DLCI *)
Example interleave_example :
  snd (tx_run tx0 [Send 10 [1]; Pull; Pull; Send 4 [2]; Send 10 [3]; Pull; Pull; Pull; Pull; Pull; Pull; Pull; Pull; Pull; Pull; Pull; Pull; Pull; Pull]) =
    [126; 10; 3; 1; 126;  126; 4; 3; 2; 126;  126; 10; 3; 3; 126].
Proof. vm_compute. reflexivity. Qed.
