(* C18: a stream of bursts through one receiving transceiver: suppressed = exactly the FAKE_DROP pattern *)
From Coq Require Import ZArith List Bool Lia ZifyBool.
From OBB Require Import Model.Trxd Model.Trx Proofs.TrxdRx Proofs.TrxDrop Proofs.TrxMeta.
Import ListNotations.
Open Scope Z_scope.

(* what the recipient's L1 can tell: a burst was suppressed iff nothing arrives (version 0) or a NOPE indication arrives *)
Definition suppressed (d : delivery) : bool :=
  match d with Silent None => true | Sent _ m => r_nope m | Silent (Some m) => r_nope m | DCrash => false end.

Fixpoint handle_stream (dst src : sim) (ver : Z) (ms : list txmsg) (draws : list Z) : list delivery * sim * list Z :=
  match ms with
  | [] => ([], dst, draws)
  | m :: r => let '(dst1, d, dr1) := handle_data dst src m (trans m ver) draws in
              let '(ds, dst2, dr2) := handle_stream dst1 src ver r dr1 in (d :: ds, dst2, dr2)
  end.

Lemma sim_ok_drop s f : sim_ok s -> sim_ok (snd (sim_drop s f)).
Proof.
  intros Hok. rewrite sim_drop_snd. destruct (fst (sim_drop s f)) eqn:E; [|exact Hok].
  rewrite sim_drop_fst in E. destruct Hok as [H1 [H2 [H3 [H4 H5]]]]. repeat split; try assumption. cbn. lia.
Qed.

(* send_msg: ValueError is caught by the caller, nothing else is raised *)
Lemma send_out_total l m : send_out l m <> DCrash.
Proof. unfold send_out, gen_rx. destruct (validate_rx_cases m) as [-> | ->]; discriminate. Qed.

Lemma send_out_flag l m : suppressed (send_out l m) = r_nope m.
Proof. pose proof (send_out_total l m) as H. unfold send_out in *. destruct (gen_rx l m); [reflexivity|reflexivity|contradiction H; reflexivity]. Qed.

Lemma handle_one dst src m bits ver draws :
  sim_ok dst -> s_muted dst = false -> t_burst m = Some bits ->
  let '(dst1, d, _) := handle_data dst src m (trans m ver) draws in
  dst1 = snd (sim_drop dst (oz (t_fn m))) /\ suppressed d = fst (sim_drop dst (oz (t_fn m))) /\ d <> DCrash.
Proof.
  intros Hok Hm Hb.
  destruct (fst (sim_drop dst (oz (t_fn m)))) eqn:Ed.
  - assert (Hn : r_nope (trans m ver) = false) by (unfold trans; cbn [r_nope]; rewrite Hb; reflexivity).
    rewrite (handle_dropped dst src m (trans m ver) draws Hm Hn Ed).
    split; [reflexivity|]. destruct (r_ver (trans m ver) <? 1); [split; [reflexivity|discriminate]|].
    split; [apply send_out_flag|apply send_out_total].
  - destruct (handle_normal dst src m bits ver draws Hok Hm Hb Ed) as [toa [rssi [ci [d' [-> _]]]]].
    rewrite sim_drop_snd, Ed. split; [reflexivity|]. split; [|apply send_out_total]. rewrite send_out_flag. apply meta_msg_fields.
Qed.

Lemma stream_drops : forall ms dst src ver draws,
  sim_ok dst -> s_muted dst = false -> Forall (fun m => t_burst m <> None) ms ->
  let '(ds, dst', _) := handle_stream dst src ver ms draws in
  map suppressed ds = fst (drop_stream dst (map (fun m => oz (t_fn m)) ms))
  /\ dst' = snd (drop_stream dst (map (fun m => oz (t_fn m)) ms)) /\ ~ In DCrash ds.
Proof.
  induction ms as [|m r IH]; intros dst src ver draws Hok Hm Hb.
  - cbn. auto.
  - inversion Hb as [|m' r' Hbm Hbr]; subst. destruct (t_burst m) as [bits|] eqn:Eb; [|congruence].
    cbn [handle_stream map]. rewrite drop_stream_cons.
    pose proof (handle_one dst src m bits ver draws Hok Hm Eb) as H1.
    destruct (handle_data dst src m (trans m ver) draws) as [[dst1 d] dr1]. destruct H1 as [-> [E2 E3]].
    specialize (IH _ src ver dr1 (sim_ok_drop _ (oz (t_fn m)) Hok) (eq_trans (sim_drop_muted _ _) Hm) Hbr).
    destruct (handle_stream _ src ver r dr1) as [[ds dst2] dr2]. destruct IH as [I1 [I2 I3]].
    cbn [fst snd map]. rewrite E2, I1. split; [reflexivity|]. split; [exact I2|].
    intros [Hin|Hin]; [congruence|exact (I3 Hin)].
Qed.

Lemma stream_muted_all : forall ms dst src ver draws, s_muted dst = true ->
  let '(ds, dst', dr') := handle_stream dst src ver ms draws in
  dst' = dst /\ dr' = draws /\ Forall (fun d => suppressed d = true) ds /\ (ver = 0 -> ds = map (fun _ => Silent None) ms).
Proof.
  induction ms as [|m r IH]; intros dst src ver draws Hm.
  - cbn. auto.
  - cbn [handle_stream]. rewrite (handle_suppressed dst src m (trans m ver) draws (or_introl Hm)).
    specialize (IH dst src ver draws Hm). destruct (handle_stream dst src ver r draws) as [[ds dst2] dr2].
    destruct IH as [I1 [I2 [I3 I4]]]. split; [exact I1|]. split; [exact I2|]. split.
    + constructor; [|exact I3]. change (r_ver (trans m ver)) with ver. destruct (ver <? 1); [reflexivity|].
      apply send_out_flag.
    + intros ->. cbn [map]. rewrite (I4 eq_refl). reflexivity.
Qed.
