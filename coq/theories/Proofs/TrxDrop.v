(* C18: sim_burst_drop and its counter over a stream of bursts; int() of the control interface's tokens; FAKE_DROP argument validation *)
From Coq Require Import ZArith List Bool Lia ZifyBool.
From OBB Require Import Base.Dec Model.Trx.
Import ListNotations.
Open Scope Z_scope.

Lemma sim_drop_fst s f : fst (sim_drop s f) = negb (s_drop s =? 0) && (f mod s_period s =? 0).
Proof. unfold sim_drop. destruct (s_drop s =? 0); [reflexivity|]. destruct (f mod s_period s =? 0); reflexivity. Qed.

Lemma sim_drop_snd s f : snd (sim_drop s f) =
  if fst (sim_drop s f)
  then sim_set s (s_muted s) (s_fake_rssi s) (s_txp s) (s_att s) (s_toa s) (s_toa_thr s) (s_rssi s) (s_rssi_thr s) (s_ci s) (s_ci_thr s) (s_ta s)
               (s_drop s - 1) (s_period s) (s_delay s)
  else s.
Proof. unfold sim_drop. destruct (s_drop s =? 0); [reflexivity|]. destruct (f mod s_period s =? 0); reflexivity. Qed.

Lemma sim_drop_counter s f : s_drop (snd (sim_drop s f)) = if fst (sim_drop s f) then s_drop s - 1 else s_drop s.
Proof. rewrite sim_drop_snd. destruct (fst (sim_drop s f)); reflexivity. Qed.

Lemma sim_drop_period s f : s_period (snd (sim_drop s f)) = s_period s.
Proof. rewrite sim_drop_snd. destruct (fst (sim_drop s f)); reflexivity. Qed.

Lemma sim_drop_muted s f : s_muted (snd (sim_drop s f)) = s_muted s.
Proof. rewrite sim_drop_snd. destruct (fst (sim_drop s f)); reflexivity. Qed.

(* the counter/filter over a stream of frame numbers *)
Fixpoint drop_stream (s : sim) (fns : list Z) : list bool * sim :=
  match fns with
  | [] => ([], s)
  | f :: r => let '(b, s1) := sim_drop s f in let '(bs, s2) := drop_stream s1 r in (b :: bs, s2)
  end.

Definition hits (p : Z) (fns : list Z) : nat := length (filter (fun f => f mod p =? 0) fns).

Lemma drop_stream_cons s f r :
  drop_stream s (f :: r) = (fst (sim_drop s f) :: fst (drop_stream (snd (sim_drop s f)) r), snd (drop_stream (snd (sim_drop s f)) r)).
Proof. cbn [drop_stream]. destruct (sim_drop s f) as [b s1]. cbn [fst snd]. destruct (drop_stream s1 r). reflexivity. Qed.

Lemma hits_cons p f r : hits p (f :: r) = (if f mod p =? 0 then S (hits p r) else hits p r).
Proof. unfold hits. cbn [filter]. destruct (f mod p =? 0); reflexivity. Qed.

(* one step of the counter n against the count h of multiples seen: a multiple (c) uses up one unit if any is left *)
Lemma drop_step n (c : bool) h : 0 <= n ->
  let n1 := if negb (n =? 0) && c then n - 1 else n in
  let h1 := if c then S h else h in
  0 <= n1 /\ Z.max 0 (n1 - Z.of_nat h) = Z.max 0 (n - Z.of_nat h1) /\ (Z.of_nat h <? n1) = (Z.of_nat h1 <? n).
Proof. intros Hn. destruct c, (n =? 0) eqn:E; cbn [negb andb]; lia. Qed.

(* burst k of the stream is suppressed iff its frame number is a multiple of the period and fewer than n such bursts came before *)
Lemma drop_stream_spec : forall fns s, 0 <= s_drop s ->
  length (fst (drop_stream s fns)) = length fns /\
  (forall k, (k < length fns)%nat ->
     nth k (fst (drop_stream s fns)) false = ((nth k fns 0 mod s_period s =? 0) && (Z.of_nat (hits (s_period s) (firstn k fns)) <? s_drop s))) /\
  s_drop (snd (drop_stream s fns)) = Z.max 0 (s_drop s - Z.of_nat (hits (s_period s) fns)) /\ s_period (snd (drop_stream s fns)) = s_period s.
Proof.
  induction fns as [|f r IH]; intros s Hn.
  - cbn. repeat split; lia.
  - rewrite drop_stream_cons, hits_cons. cbn [fst snd length].
    destruct (IH (snd (sim_drop s f))) as [IL [IK [ID IP]]].
    { rewrite sim_drop_counter, sim_drop_fst. apply (drop_step _ _ 0 Hn). }
    rewrite sim_drop_period in IK, ID, IP. rewrite sim_drop_counter, sim_drop_fst in IK, ID.
    split; [rewrite IL; reflexivity|]. split; [|split; [|exact IP]].
    + intros [|k] Hk; cbn [nth firstn].
      * rewrite sim_drop_fst. cbn. destruct (f mod s_period s =? 0); lia.
      * rewrite IK, hits_cons by lia. f_equal. apply drop_step, Hn.
    + rewrite ID. apply drop_step, Hn.
Qed.

(* after the n-th suppressed burst everything is forwarded again *)
Lemma drop_stream_exhausted fns s k : 0 <= s_drop s -> (k < length fns)%nat ->
  s_drop s <= Z.of_nat (hits (s_period s) (firstn k fns)) -> nth k (fst (drop_stream s fns)) false = false.
Proof.
  intros Hn Hk Hh. destruct (drop_stream_spec fns s Hn) as [_ [HK _]]. rewrite HK by exact Hk. lia.
Qed.

Definition is_dig_b (c : Z) : bool := (48 <=? c) && (c <=? 57).

Lemma digits_all : forall l a p, Forall is_dig l -> (l <> [] \/ p = true) -> digits l a p = Some (fold_left (fun a d => 10 * a + (d - 48)) l a).
Proof.
  induction l as [|c r IH]; intros a p Hd Hne.
  - destruct Hne as [H| ->]; [congruence|reflexivity].
  - inversion Hd as [|c' r' Hc Hr]; subst. cbn [digits fold_left]. unfold is_dig in Hc. unfold is_digit.
    replace ((48 <=? c) && (c <=? 57)) with true by lia. apply IH; [exact Hr|right; reflexivity].
Qed.

Lemma strip_no_ws l : Forall (fun c => is_ws c = false) l -> strip is_ws l = l.
Proof.
  assert (H : forall m, Forall (fun c => is_ws c = false) m -> lstrip is_ws m = m).
  { intros m [|c r Hc _]; cbn [lstrip]; [|rewrite Hc]; reflexivity. }
  intros Hl. unfold strip. rewrite (H l Hl), (H (rev l)) by (apply Forall_rev, Hl). apply rev_involutive.
Qed.

Lemma dig_no_ws c : is_dig c -> is_ws c = false.
Proof. unfold is_dig, is_ws. lia. Qed.

(* int() of an unsigned and of a minus-signed decimal token *)
Lemma py_int_digits l : Forall is_dig l -> l <> [] -> py_int l = Some (dec_value l).
Proof.
  intros Hd Hne. unfold py_int. rewrite strip_no_ws by exact (Forall_impl _ dig_no_ws Hd).
  destruct l as [|c r]; [congruence|]. transitivity (digits (c :: r) 0 false); [|apply digits_all; auto].
  (* a digit is neither of the sign characters 45, 43 the match looks for *)
  assert (Hc : is_dig c) by (inversion Hd; assumption). unfold is_dig in Hc.
  destruct c as [|c|c]; try reflexivity. do 6 (destruct c as [c|c|]; try reflexivity); lia.
Qed.

Lemma py_int_minus l : Forall is_dig l -> l <> [] -> py_int (45 :: l) = Some (- dec_value l).
Proof.
  intros Hd Hne. unfold py_int. rewrite strip_no_ws by (constructor; [reflexivity|exact (Forall_impl _ dig_no_ws Hd)]).
  rewrite digits_all by auto. reflexivity.
Qed.

Lemma py_int_str a : py_int (py_str a) = Some a.
Proof.
  unfold py_str, dec. destruct (a <? 0) eqn:E.
  - destruct (dec_nat_spec (- a) ltac:(lia)) as [Hd [Hne [Hv _]]]. rewrite py_int_minus, Hv by assumption. f_equal. lia.
  - destruct (dec_nat_spec a ltac:(lia)) as [Hd [Hne [Hv _]]]. rewrite py_int_digits, Hv by assumption. reflexivity.
Qed.

Lemma fake_drop2 s a b n p : py_int a = Some n -> py_int b = Some p ->
  fake_handler s [v_FAKE_DROP; a; b] =
  if (n <? 0) || (p <=? 0) then (s, Some (CStatus (-1) []))
  else (sim_set s (s_muted s) (s_fake_rssi s) (s_txp s) (s_att s) (s_toa s) (s_toa_thr s) (s_rssi s) (s_rssi_thr s) (s_ci s) (s_ci_thr s) (s_ta s) n p (s_delay s),
        Some (CStatus 0 [])).
Proof.
  intros Ha Hb. unfold fake_handler, arg. cbn [nth_error]. rewrite Ha, Hb.
  destruct (n <? 0); [reflexivity|]. destruct (p <=? 0); reflexivity.
Qed.

Lemma fake_drop1 s a n : py_int a = Some n ->
  fake_handler s [v_FAKE_DROP; a] =
  if n <? 0 then (s, Some (CStatus (-1) []))
  else (sim_set s (s_muted s) (s_fake_rssi s) (s_txp s) (s_att s) (s_toa s) (s_toa_thr s) (s_rssi s) (s_rssi_thr s) (s_ci s) (s_ci_thr s) (s_ta s) n 1 (s_delay s),
        Some (CStatus 0 [])).
Proof.
  intros Ha. unfold fake_handler, arg. cbn [nth_error]. rewrite Ha. destruct (n <? 0); reflexivity.
Qed.
