(* trxcon TRXD paths (trx_data_rx_cb, trx_if_handle_phyif_burst_req): bounds, and agreement with the Python codec (C04, C14) *)
From Coq Require Import ZArith List Bool Lia ZifyBool.
From OBB Require Import Base.Lists Base.Bits Gen.TrxdConst Gen.TrxIfConst Model.Trxd Model.TrxIf Proofs.TrxdBase Proofs.TrxdTx Proofs.TrxdRx Proofs.TrxdRxRT.
Import ListNotations.
Open Scope Z_scope.

(* the regenerated constants are the ones the protocol / the headers state *)
Lemma gen_trxif_consts :
  trxc_buf_size = 1024 /\ trxd_buf_size = 512 /\ trxdv0_hdr_len = 8 /\ c_tdma_hyperframe = 2715648
  /\ nb_gmsk_burst = 148 /\ nb_8psk_burst = 444 /\ ctrl_cmd_size = 1024.
Proof. repeat split; reflexivity. Qed.

Lemma consts_agree : c_tdma_hyperframe = gsm_hyperframe /\ nb_gmsk_burst = gmsk_burst_len /\ nb_8psk_burst = edge_burst_len.
Proof. repeat split; reflexivity. Qed.

(* C integer conversions: (intN_t) x is wrap m x with m = 2^(N-1) *)
Definition wrap (m x : Z) : Z := let u := x mod (2 * m) in if u <? m then u else u - 2 * m.

Lemma wrap_range m x : 0 < m -> - m <= wrap m x <= m - 1.
Proof. intros Hm. unfold wrap. pose proof (Z.mod_pos_bound x (2 * m)). cbv zeta. destruct (_ <? m) eqn:E; lia. Qed.

Lemma wrap_id m x : - m <= x <= m - 1 -> wrap m x = x.
Proof.
  intros H. unfold wrap. destruct (x <? 0) eqn:Ex.
  - rewrite <- (Z.mod_add x 1), Z.mod_small by lia. cbv zeta. destruct (_ <? m) eqn:E; lia.
  - rewrite Z.mod_small by lia. cbv zeta. destruct (_ <? m) eqn:E; lia.
Qed.

Lemma wrap_congr m x y : x mod (2 * m) = y mod (2 * m) -> wrap m x = wrap m y.
Proof. unfold wrap. intros ->. reflexivity. Qed.

Lemma wrap_mod m x : 0 < m -> wrap m x mod (2 * m) = x mod (2 * m).
Proof.
  intros Hm. unfold wrap. cbv zeta. destruct (_ <? m).
  - apply Z.mod_mod. lia.
  - rewrite <- (Z.mod_add (_ - _) 1), Z.mul_1_l, Z.sub_add by lia. apply Z.mod_mod. lia.
Qed.

Lemma wrap32_range x : -2147483648 <= wrap32 x <= 2147483647.
Proof. exact (wrap_range 2147483648 x eq_refl). Qed.
Lemma wrap8_id x : -128 <= x <= 127 -> wrap8 x = x.
Proof. exact (wrap_id 128 x). Qed.
Lemma wrap16_id x : -32768 <= x <= 32767 -> wrap16 x = x.
Proof. exact (wrap_id 32768 x). Qed.
Lemma wrap32_id x : -2147483648 <= x <= 2147483647 -> wrap32 x = x.
Proof. exact (wrap_id 2147483648 x). Qed.

Lemma conv_bits_ok buf n : forall i, (8 + i + n <= length buf)%nat ->
  conv_bits buf i n = Some (map c_us2s (firstn n (skipn (8 + i) buf))).
Proof.
  induction n as [|n IH]; intros i Hl; [reflexivity|].
  cbn [conv_bits]. destruct (nth_error buf (8 + i)) as [b|] eqn:E.
  - rewrite (skipn_cons_nth _ _ _ E). rewrite IH by lia. replace (8 + S i)%nat with (S (8 + i)) by lia. reflexivity.
  - apply nth_error_None in E. lia.
Qed.

Lemma rx_payload_len_some pl bl : rx_payload_len pl = Some bl <-> (bl = 148 \/ bl = 444) /\ (pl = bl \/ pl = bl + 2).
Proof.
  unfold rx_payload_len. change nb_gmsk_burst with 148. change nb_8psk_burst with 444.
  destruct ((pl =? 148 + 2) || (pl =? 444 + 2)) eqn:E1; [|destruct ((pl =? 148) || (pl =? 444)) eqn:E2];
    (split; [intros H; try discriminate; injection H as <-|intros H; try f_equal]); lia.
Qed.

(* trx_data_rx_cb as a function of the octets read() left in buf[] *)
Definition data_rx_spec (buf : list Z) : rx_res :=
  match buf with
  | [] => RxNone
  | b0 :: b1 :: b2 :: b3 :: b4 :: b5 :: b6 :: b7 :: payload =>
    if negb (Z.shiftr b0 4 =? 0) then RxBadVer else
    match rx_payload_len (Z.of_nat (length payload)) with
    | None => RxBadLen
    | Some bl =>
      let fn := ((b1 * 256 + b2) * 256 + b3) * 256 + b4 in
      if fn >=? c_tdma_hyperframe then RxBadFn
      else RxInd (Z.land b0 7) fn (wrap8 (- wrap8 b5)) (wrap16 (Z.lor (wrap16 (Z.shiftl b6 8)) b7)) (map c_us2s (firstn (Z.to_nat bl) payload))
    end
  | _ => RxShort
  end.

Lemma c_data_rx_spec d : c_data_rx d = data_rx_spec (firstn (Z.to_nat trxd_buf_size) d).
Proof.
  unfold c_data_rx. change trxdv0_hdr_len with 8.
  destruct (firstn _ d) as [|b0 [|b1 [|b2 [|b3 [|b4 [|b5 [|b6 [|b7 payload]]]]]]]]; try reflexivity.
  set (buf := b0 :: b1 :: b2 :: b3 :: b4 :: b5 :: b6 :: b7 :: payload).
  assert (Hlen : Z.of_nat (length buf) = 8 + Z.of_nat (length payload)) by (subst buf; cbn [length]; lia).
  rewrite Hlen. destruct (_ <=? 0) eqn:E0; [lia|]. destruct (_ <? 8) eqn:E1; [lia|].
  subst buf. cbn [nth_error data_rx_spec].
  destruct (negb (Z.shiftr b0 4 =? 0)); [reflexivity|].
  replace (8 + Z.of_nat (length payload) - 8) with (Z.of_nat (length payload)) by lia.
  destruct (rx_payload_len _) as [bl|] eqn:Ebl; [|reflexivity].
  apply rx_payload_len_some in Ebl.
  rewrite conv_bits_ok by (cbn [length]; lia). reflexivity.
Qed.

(* C04 / C14: whatever octets arrive, trx_data_rx_cb reads only octets it received *)
Theorem c_data_rx_safe : forall d, c_data_rx d <> RxOOB.
Proof.
  intros d. rewrite c_data_rx_spec.
  destruct (firstn _ d) as [|b0 [|b1 [|b2 [|b3 [|b4 [|b5 [|b6 [|b7 payload]]]]]]]]; try discriminate.
  cbn [data_rx_spec]. destruct (negb _); [discriminate|]. destruct (rx_payload_len _); [|discriminate].
  cbv zeta. destruct (_ >=? _); discriminate.
Qed.

Lemma c_us2s_range b : 0 <= b < 256 -> -127 <= c_us2s b <= 127.
Proof. intros H. unfold c_us2s. destruct (b =? 255) eqn:E; lia. Qed.

(* an indication carries burst_len in {148, 444} soft bits in [-127,127] *)
Lemma c_data_rx_ind_shape d tn fn rssi toa bits : Forall (fun b => 0 <= b < 256) d -> c_data_rx d = RxInd tn fn rssi toa bits ->
  0 <= tn <= 7 /\ 0 <= fn < 2715648 /\ -128 <= rssi <= 127 /\ -32768 <= toa <= 32767
  /\ (length bits = 148%nat \/ length bits = 444%nat) /\ Forall (fun s => -127 <= s <= 127) bits.
Proof.
  intros Hd. rewrite c_data_rx_spec. apply (Forall_firstn _ (Z.to_nat trxd_buf_size)) in Hd.
  destruct (firstn _ d) as [|b0 [|b1 [|b2 [|b3 [|b4 [|b5 [|b6 [|b7 payload]]]]]]]]; try discriminate.
  cbn [data_rx_spec]. destruct (negb _); [discriminate|]. destruct (rx_payload_len _) as [bl|] eqn:Ebl; [|discriminate].
  cbv zeta. destruct (_ >=? _) eqn:Efn; [discriminate|]. intros H. injection H as <- <- <- <- <-.
  apply rx_payload_len_some in Ebl.
  apply Forall_fold_right in Hd. cbn [fold_right] in Hd. destruct Hd as (_ & H1 & H2 & H3 & H4 & _ & _ & _ & Hp). apply Forall_fold_right in Hp.
  change c_tdma_hyperframe with 2715648 in Efn.
  split; [|split; [|split; [|split; [|split]]]].
  - rewrite (proj2 (b0_arith b0)). pose proof (Z.mod_pos_bound b0 8). lia.
  - lia.
  - exact (wrap_range 128 _ eq_refl).
  - exact (wrap_range 32768 _ eq_refl).
  - rewrite map_length, firstn_length. lia.
  - apply Forall_map, Forall_firstn. eapply Forall_impl; [|exact Hp]. exact c_us2s_range.
Qed.

(* Python -> C: what the toolkit encodes is what trxcon hands to its scheduler *)
(* (int16_t) (buf[6] << 8) | buf[7]: modulo 2^16 the inner conversion disappears, and the shifted octet has its low
   eight bits clear, so that the "or" adds *)
Lemma toa_compose b6 b7 : 0 <= b6 < 256 -> 0 <= b7 < 256 -> wrap16 (Z.lor (wrap16 (Z.shiftl b6 8)) b7) = wrap16 (b6 * 256 + b7).
Proof.
  intros H6 H7. apply (wrap_congr 32768). change (2 * 32768) with (2 ^ 16).
  rewrite <- !Z.land_ones, Z.land_lor_distr_l, !Z.land_ones by lia.
  change (2 ^ 16) with (2 * 32768). rewrite (wrap_mod 32768) by lia.
  rewrite Z.shiftl_mul_pow2, !Z.mod_small by lia. rewrite <- Z.shiftl_mul_pow2 by lia. apply lor_shift_add; lia.
Qed.

(* the two octet decompositions below are left to lia's euclidean-division preprocessing *)
Ltac Zify.zify_post_hook ::= Z.to_euclidean_division_equations.
Lemma toa_wire a : -32768 <= a <= 32767 ->
  wrap16 (Z.lor (wrap16 (Z.shiftl (a mod 65536 / 256) 8)) (a mod 65536 mod 256)) = a.
Proof.
  intros Ha. rewrite toa_compose by lia. rewrite <- (wrap16_id a Ha) at 3. apply (wrap_congr 32768).
  replace (a mod 65536 / 256 * 256 + a mod 65536 mod 256) with (a mod 65536) by lia. apply Z.mod_mod. lia.
Qed.

Lemma fn_wire f : 0 <= f < 4294967296 ->
  ((f / 16777216 mod 256 * 256 + f / 65536 mod 256) * 256 + f / 256 mod 256) * 256 + f mod 256 = f.
Proof. lia. Qed.
Ltac Zify.zify_post_hook ::= idtac.

(* the soft bit trxcon delivers for an encoded soft bit s: s itself, except that -128 comes out as -127 *)
Definition clip (s : Z) : Z := if s =? -128 then -127 else s.
Lemma conv_usbits bs : map c_us2s (usbits bs) = map clip bs.
Proof.
  induction bs as [|s l IH]; [reflexivity|]. unfold usbits in *. cbn [map]. rewrite IH. f_equal.
  unfold c_us2s, clip. destruct (127 - s =? 255) eqn:E1; destruct (s =? -128) eqn:E2; lia.
Qed.
Lemma clip_id bs : Forall (fun s => -127 <= s <= 127) bs -> map clip bs = bs.
Proof. induction 1 as [|s l Hs _ IH]; [reflexivity|]. cbn [map]. rewrite IH. unfold clip. destruct (s =? -128) eqn:E; [lia|reflexivity]. Qed.

Lemma c_data_rx_layout f t r a bs pad :
  0 <= f < 2715648 -> 0 <= t <= 7 -> -127 <= r <= 127 -> -32768 <= a <= 32767 ->
  (length bs = 148%nat \/ length bs = 444%nat) -> (length pad = 0%nat \/ length pad = 2%nat) ->
  c_data_rx (layout_rx_hdr 0 f t r a ++ usbits bs ++ pad) = RxInd t f r a (map clip bs).
Proof.
  intros Hf Ht Hr Ha Hl Hpad.
  assert (Hlen : length (usbits bs ++ pad) = (length bs + length pad)%nat) by (unfold usbits; rewrite app_length, map_length; reflexivity).
  rewrite c_data_rx_spec, firstn_all2 by (rewrite app_length, Hlen; cbn; lia).
  unfold layout_rx_hdr. cbn [app data_rx_spec]. destruct (b0_fields 0 t) as [-> ->]; [lia|]. cbn [Z.eqb negb].
  rewrite Hlen, (proj2 (rx_payload_len_some _ (Z.of_nat (length bs)))) by lia. cbv zeta.
  rewrite fn_wire by lia. change c_tdma_hyperframe with 2715648. destruct (f >=? 2715648) eqn:E; [lia|].
  rewrite Nat2Z.id, firstn_app_len by (unfold usbits; rewrite map_length; reflexivity).
  rewrite conv_usbits, (wrap8_id (- r)), Z.opp_involutive, wrap8_id, toa_wire by (assumption || lia). reflexivity.
Qed.

Theorem py_to_c_gen m l b :
  gen_rx l m = Ok b -> r_ver m = 0 ->
  (match r_burst m with Some bs => Forall (fun s => -128 <= s <= 127) bs | None => True end) ->
  exists fn tn rssi toa bs, r_fn m = Some fn /\ r_tn m = Some tn /\ r_rssi m = Some rssi /\ r_toa m = Some toa /\ r_burst m = Some bs
    /\ c_data_rx b = RxInd tn fn rssi toa (map clip bs).
Proof.
  intros Hgen Hver Hbytes.
  assert (Hval : validate_rx m = Ok tt) by (apply (proj1 (gen_rx_iff m l)); eauto).
  apply validate_rx_iff in Hval.
  destruct Hval as [[_ [[f [Ef Hf]] [t [Et Ht]]]] [[r [Er Hr]] [[a [Ea Ha]] [_ [_ [Hb _]]]]]].
  destruct (Hb Hver) as [bs [Eb Hl]].
  destruct (gen_rx_layout _ _ _ Hgen Hbytes) as [f' [t' [r' [a' [Ef' [Et' [Er' [Ea' ->]]]]]]]].
  rewrite Ef in Ef'. rewrite Et in Et'. rewrite Er in Er'. rewrite Ea in Ea'.
  injection Ef' as <-. injection Et' as <-. injection Er' as <-. injection Ea' as <-.
  exists f, t, r, a, bs. repeat (split; [assumption|]).
  rewrite Hver, Eb in *. cbn [Z.eqb andb app]. rewrite andb_true_r.
  apply c_data_rx_layout; try assumption; try lia. destruct l; cbn; auto.
Qed.

Lemma soft_ok_bytes m : soft_ok m -> match r_burst m with Some bs => Forall (fun s => -128 <= s <= 127) bs | None => True end.
Proof. unfold soft_ok. destruct (r_burst m); [|trivial]. apply Forall_impl. intros; lia. Qed.

(* non-vacuity + the -128 corner, concretely *)
Example py_to_c_example :
  match gen_rx true {| r_ver := 0; r_fn := Some 2715647; r_tn := Some 7; r_rssi := Some (-120); r_toa := Some (-32768);
                       r_nope := false; r_mod := Some 0%nat; r_tset := None; r_tsc := None; r_ci := None;
                       r_burst := Some (repeat (-127) 147 ++ [-128]) |} with
  | Ok b => c_data_rx b = RxInd 7 2715647 (-120) (-32768) (repeat (-127) 148) /\ length b = 158%nat
  | _ => False
  end.
Proof. vm_compute. split; reflexivity. Qed.

Lemma c_rx_bad_version b0 rest : (7 <= length rest)%nat -> Z.shiftr b0 4 <> 0 -> c_data_rx (b0 :: rest) = RxBadVer.
Proof.
  intros Hl Hv. rewrite c_data_rx_spec. change (Z.to_nat trxd_buf_size) with (S 511). rewrite firstn_cons.
  assert (Hfl : (7 <= length (firstn 511 rest))%nat) by (rewrite firstn_length; lia).
  destruct (firstn 511 rest) as [|b1 [|b2 [|b3 [|b4 [|b5 [|b6 [|b7 payload]]]]]]]; cbn [length] in Hfl; try lia.
  cbn [data_rx_spec]. apply Z.eqb_neq in Hv. rewrite Hv. reflexivity.
Qed.

(* a version-1 datagram is refused by trxcon (it only speaks TRXDv0), whatever follows the first octet *)
Lemma c_rx_v1_refused m l b : gen_rx l m = Ok b -> r_ver m = 1 -> c_data_rx b = RxBadVer.
Proof.
  intros Hgen Hver. apply gen_inv in Hgen as [Hval ->]. apply validate_rx_iff in Hval.
  destruct Hval as [[_ [[f [Ef Hf]] [t [Et Ht]]]] _].
  rewrite Hver, Ef, Et. unfold gen_common, be32, i16, oz at 1 2. cbv zeta. cbn [app].
  apply c_rx_bad_version; [cbn [length]; lia|]. rewrite (proj1 (b0_rt 1 t ltac:(lia) ltac:(lia))). discriminate.
Qed.

(* C -> Python: what trxcon sends is parsed by the toolkit to the values trxcon was given *)
Lemma map_u8_id l : Forall (fun b => 0 <= b < 256) l -> map u8 l = l.
Proof. induction 1 as [|x l Hx _ IH]; [reflexivity|]. cbn [map]. rewrite IH. unfold u8. rewrite Z.mod_small by lia. reflexivity. Qed.

Lemma c_burst_req_layout tn fn pwr burst :
  0 <= tn <= 255 -> 0 <= fn < 4294967296 -> 0 <= pwr <= 255 -> Forall (fun b => 0 <= b < 256) burst -> (length burst <= 506)%nat ->
  c_burst_req tn fn pwr burst = TxSent (layout_tx 0 fn tn pwr burst).
Proof.
  intros Ht Hf Hp Hb Hl. unfold c_burst_req. change trxd_buf_size with 512.
  destruct (6 + Z.of_nat (length burst) >? 512) eqn:E; [lia|].
  rewrite map_u8_id by assumption. unfold u8, u32, layout_tx, be32.
  rewrite (Z.mod_small tn), (Z.mod_small fn), (Z.mod_small pwr) by lia. reflexivity.
Qed.

Lemma c_burst_req_oob tn fn pwr burst : (506 < length burst)%nat <-> c_burst_req tn fn pwr burst = TxOOB.
Proof.
  unfold c_burst_req. change trxd_buf_size with 512.
  destruct (6 + Z.of_nat (length burst) >? 512) eqn:E; split; intros H; try reflexivity; try lia; discriminate.
Qed.

(* the unchecked memcpy: a burst request longer than 506 octets overruns uint8_t buf[512] *)
Lemma c_burst_req_oob_refuted : c_burst_req 0 0 0 (repeat 0 507) = TxOOB.
Proof. vm_compute. reflexivity. Qed.

(* other burst lengths: the toolkit's parser cuts a burst of 149..443 octets to 148 and one of 445..506 to 444, keeps a shorter one
   as it is (TxMsg.validate refuses it later) and reports "no burst" for an empty one *)
Lemma tx_parse_burst_cases bu :
  let n := length bu in
  tx_parse_burst bu = if (444 <? Z.of_nat n) then firstn 444 bu else if (148 <? Z.of_nat n) && (Z.of_nat n <? 444) then firstn 148 bu else bu.
Proof.
  cbv zeta. unfold tx_parse_burst. destruct gen_bl as [-> ->]. rewrite Z.geb_leb, !Z.gtb_ltb.
  destruct (444 <? Z.of_nat (length bu)) eqn:E1.
  - replace (444 <=? Z.of_nat (length bu)) with true by lia. reflexivity.
  - destruct (444 <=? Z.of_nat (length bu)) eqn:E2.
    + replace (Z.of_nat (length bu) <? 444) with false by lia. rewrite andb_false_r. reflexivity.
    + replace (Z.of_nat (length bu) <? 444) with true by lia. rewrite andb_true_r. reflexivity.
Qed.

Theorem c_to_py_gen tn fn pwr burst :
  0 <= tn <= 7 -> 0 <= fn < 4294967296 -> 0 <= pwr <= 255 -> Forall (fun b => 0 <= b < 256) burst -> (length burst <= 506)%nat ->
  exists o, c_burst_req tn fn pwr burst = TxSent o /\ o = layout_tx 0 fn tn pwr burst /\
    parse_tx o = Ok {| t_ver := 0; t_fn := Some fn; t_tn := Some tn; t_pwr := Some pwr;
                       t_burst := match burst with [] => None | _ :: _ => Some (tx_parse_burst burst) end |}.
Proof.
  intros Ht Hf Hp Hb Hl. eexists. split; [apply c_burst_req_layout; try assumption; lia|]. split; [reflexivity|].
  rewrite parse_tx_layout by (auto; lia). destruct burst; reflexivity.
Qed.

(* the timeslot octet is sent unmasked: a timeslot number above 7 would be read back as another timeslot / version *)
Example c_tx_tn_unmasked :
  (match c_burst_req 9 5 0 (repeat 1 148) with TxSent o => parse_tx o | TxOOB => Crash end)
   = Ok {| t_ver := 0; t_fn := Some 5; t_tn := Some 1; t_pwr := Some 0; t_burst := Some (repeat 1 148) |}
  /\ (match c_burst_req 23 5 0 (repeat 1 148) with TxSent o => parse_tx o | TxOOB => Crash end)
   = Ok {| t_ver := 1; t_fn := Some 5; t_tn := Some 7; t_pwr := Some 0; t_burst := Some (repeat 1 148) |}.
Proof. split; vm_compute; reflexivity. Qed.

Example c_to_py_example :
  exists o, c_burst_req 7 2715647 255 (repeat 1 444) = TxSent o /\ length o = 450%nat.
Proof. eexists. split; [vm_compute; reflexivity|reflexivity]. Qed.

(* what trxcon sends always fits the 512 octets the toolkit's DATAInterface.recv_raw_data() asks for *)
Lemma c_burst_req_fits tn fn pwr burst o : c_burst_req tn fn pwr burst = TxSent o -> (length o <= 512)%nat /\ length o = (6 + length burst)%nat.
Proof.
  unfold c_burst_req. change trxd_buf_size with 512.
  destruct (6 + Z.of_nat (length burst) >? 512) eqn:E; [discriminate|]. intros H. injection H as <-.
  unfold be32. repeat (rewrite app_length || rewrite map_length || cbn [length app]). lia.
Qed.
