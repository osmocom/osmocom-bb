(* C04: anything the toolkit's TRXD parser accepts is read per the documented layout (converse of gen_tx_layout / gen_rx_layout) *)
From Coq Require Import ZArith List Bool Lia ZifyBool.
From OBB Require Import Base.Lists Base.Range Gen.TrxdConst Model.Trxd Proofs.TrxdBase Proofs.TrxdTx Proofs.TrxdRx Proofs.TrxdRxRT Proofs.TrxIfP.
Import ListNotations.
Open Scope Z_scope.
Ltac Zify.zify_post_hook ::= Z.to_euclidean_division_equations.

Definition octets (b : list Z) : Prop := Forall (fun x => 0 <= x < 256) b.

(* first octet: version nibble, reserved bit 3 (ignored by the parser), timeslot *)
Lemma b0_decomp b0 : exists r, (r = 0 \/ r = 1) /\ b0 = Z.shiftr b0 4 * 16 + (Z.land b0 7 + 8 * r) /\ 0 <= Z.land b0 7 <= 7.
Proof. destruct (b0_arith b0) as [-> ->]. exists (b0 / 8 mod 2). lia. Qed.

Lemma be32_of_bytes b1 b2 b3 b4 : 0 <= b1 < 256 -> 0 <= b2 < 256 -> 0 <= b3 < 256 -> 0 <= b4 < 256 ->
  let fn := ((b1 * 256 + b2) * 256 + b3) * 256 + b4 in
  0 <= fn < 4294967296 /\ [fn / 16777216 mod 256; fn / 65536 mod 256; fn / 256 mod 256; fn mod 256] = [b1; b2; b3; b4].
Proof. intros H1 H2 H3 H4. cbv zeta. split; [lia|]. repeat f_equal; lia. Qed.

Lemma i16_of_bytes b6 b7 : 0 <= b6 < 256 -> 0 <= b7 < 256 ->
  let u := b6 * 256 + b7 in let a := if u <? 32768 then u else u - 65536 in
  -32768 <= a <= 32767 /\ a mod 65536 / 256 = b6 /\ a mod 65536 mod 256 = b7.
Proof. intros H6 H7. cbv zeta. destruct (b6 * 256 + b7 <? 32768) eqn:E; lia. Qed.
Ltac Zify.zify_post_hook ::= idtac.

Theorem parse_tx_is_layout b m : octets b -> parse_tx b = Ok m ->
  exists fn tn pwr r rest,
    (t_ver m = 0 \/ t_ver m = 1) /\ t_fn m = Some fn /\ t_tn m = Some tn /\ t_pwr m = Some pwr
    /\ 0 <= fn < 4294967296 /\ 0 <= tn <= 7 /\ 0 <= pwr <= 255 /\ (r = 0 \/ r = 1)
    /\ b = layout_tx (t_ver m) fn (tn + 8 * r) pwr rest
    /\ t_burst m = match rest with [] => None | _ :: _ => Some (tx_parse_burst rest) end.
Proof.
  intros Hb H.
  destruct b as [|b0 [|b1 [|b2 [|b3 [|b4 t5]]]]]; try (cbn in H; discriminate).
  unfold parse_tx in H. cbn [length Nat.ltb Nat.leb idx nth_error bind] in H.
  destruct (known (Z.shiftr b0 4)) eqn:Hk; cbn [negb] in H; [|discriminate].
  apply known_iff in Hk.
  unfold slice in H. cbn [skipn Nat.sub firstn un_be32 bind] in H.
  assert (Hhl : tx_hdr_len (Z.shiftr b0 4) = Ok 6%nat) by (unfold tx_hdr_len; destruct Hk as [-> | ->]; reflexivity).
  rewrite Hhl in H. cbn [bind] in H.
  destruct t5 as [|p rest]; [cbn in H; discriminate|].
  cbn [length Nat.ltb Nat.leb idx nth_error bind Nat.eqb skipn] in H.
  apply Forall_fold_right in Hb. cbn [fold_right] in Hb. destruct Hb as (_ & H1 & H2 & H3 & H4 & Hp & _).
  assert (Hp' : 0 <= p <= 255) by lia.
  destruct (b0_decomp b0) as [r [Hr [Hb0 Htn]]].
  destruct (be32_of_bytes b1 b2 b3 b4 H1 H2 H3 H4) as [Hfn Hbe].
  set (fn := ((b1 * 256 + b2) * 256 + b3) * 256 + b4) in *.
  assert (Hlay : b0 :: b1 :: b2 :: b3 :: b4 :: p :: rest = layout_tx (Z.shiftr b0 4) fn (Z.land b0 7 + 8 * r) p rest).
  { unfold layout_tx. cbn [app]. rewrite <- Hb0. injection Hbe as -> -> -> ->. reflexivity. }
  exists fn, (Z.land b0 7), p, r, rest.
  destruct rest as [|x xs]; cbn [length Nat.eqb] in H; injection H as <-; cbn [t_ver t_fn t_tn t_pwr t_burst].
  all: repeat (split; [solve [auto]|]); reflexivity.
Qed.

Lemma find_idx_spec {A} (p : A -> bool) (l : list A) : forall k i, find_idx p l k = Some i ->
  (k <= i)%nat /\ exists x, nth_error l (i - k) = Some x /\ p x = true.
Proof.
  induction l as [|y l IH]; intros k i H; cbn [find_idx] in H; [discriminate|].
  destruct (p y) eqn:E.
  - injection H as <-. split; [lia|]. exists y. rewrite Nat.sub_diag. split; [reflexivity|exact E].
  - apply IH in H as [Hk [x [Hn Hp]]]. split; [lia|]. exists x. split; [|exact Hp].
    replace (i - k)%nat with (S (i - S k)) by lia. exact Hn.
Qed.
Lemma pick_by_bl_spec bl i : pick_by_bl bl = Some i -> mod_bl i = bl.
Proof.
  unfold pick_by_bl, mod_bl. intros H. apply find_idx_spec in H as [_ [x [Hn Hp]]]. rewrite Nat.sub_0_r in Hn.
  rewrite (nth_error_nth _ _ _ Hn). lia.
Qed.

(* soft bits as the protocol words them: 0 -> 127 ... 254 -> -127, 255 -> -127 *)
Definition us2s_spec (u : Z) : Z := if u =? 255 then -127 else 127 - u.
Lemma map_us2s_spec l : octets l -> map us2s l = map us2s_spec l.
Proof. induction 1 as [|x l Hx _ IH]; [reflexivity|]. cbn [map]. rewrite IH, us2s_f by lia. reflexivity. Qed.

(* the MTS octet of version 1, in arithmetic: bit 7 NOPE; otherwise bits 2..0 TSC, bits 6..3 modulation and TSC set
   (0000..0011 GMSK set 0..3; 010x 8-PSK, 011x GMSK-AB, 100x 16QAM, 101x 32QAM, 110x AQPSK, x = set; 111x unassigned) *)
Definition mts_spec (x : Z) : bool * option nat * option Z * option Z :=
  if 128 <=? x then (true, None, None, None) else
  let t := x mod 8 in let mm := x / 8 in
  if 4 <=? mm then (false, nth (Z.to_nat (mm / 2)) [None; None; Some 1%nat; Some 2%nat; Some 3%nat; Some 4%nat; Some 5%nat; None] None, Some (mm mod 2), Some t)
  else (false, Some 0%nat, Some mm, Some t).
(* both decoders tabulated over the 256 octets, the tables compared *)
Lemma parse_mts_arith x : 0 <= x < 256 -> parse_mts x = mts_spec x.
Proof.
  intros H. apply (proj1 (@map_ext_in_iff _ _ parse_mts mts_spec (range 0 256))); [vm_compute; reflexivity|apply in_range, H].
Qed.

(* the eight octets both versions start with *)
Lemma rx_hdr_of_bytes b0 b1 b2 b3 b4 b5 b6 b7 : octets [b0; b1; b2; b3; b4; b5; b6; b7] ->
  let fn := ((b1 * 256 + b2) * 256 + b3) * 256 + b4 in
  let toa := if b6 * 256 + b7 <? 32768 then b6 * 256 + b7 else b6 * 256 + b7 - 65536 in
  exists r, (r = 0 \/ r = 1) /\ 0 <= fn < 4294967296 /\ 0 <= Z.land b0 7 <= 7 /\ -255 <= - b5 <= 0 /\ -32768 <= toa <= 32767
    /\ [b0; b1; b2; b3; b4; b5; b6; b7] = layout_rx_hdr (Z.shiftr b0 4) fn (Z.land b0 7 + 8 * r) (- b5) toa.
Proof.
  intros H. apply Forall_fold_right in H. cbn [fold_right] in H. destruct H as (_ & H1 & H2 & H3 & H4 & H5 & H6 & H7 & _).
  cbv zeta. assert (Hrssi : -255 <= - b5 <= 0) by lia.
  destruct (b0_decomp b0) as [r [Hr [Hb0 Htn]]].
  destruct (be32_of_bytes b1 b2 b3 b4 H1 H2 H3 H4) as [Hfn Hbe].
  destruct (i16_of_bytes b6 b7 H6 H7) as [Ha [Ha6 Ha7]].
  exists r. repeat (split; [assumption|]).
  unfold layout_rx_hdr. rewrite Z.opp_involutive, Ha6, Ha7. injection Hbe as -> -> -> ->. f_equal. exact Hb0.
Qed.

Theorem parse_rx_is_layout b m : octets b -> parse_rx b = Ok m ->
  exists fn tn rssi toa r rest,
    (r_ver m = 0 \/ r_ver m = 1) /\ r_fn m = Some fn /\ r_tn m = Some tn /\ r_rssi m = Some rssi /\ r_toa m = Some toa
    /\ 0 <= fn < 4294967296 /\ 0 <= tn <= 7 /\ -255 <= rssi <= 0 /\ -32768 <= toa <= 32767 /\ (r = 0 \/ r = 1)
    /\ ((r_ver m = 0 /\ b = layout_rx_hdr 0 fn (tn + 8 * r) rssi toa ++ rest
         /\ match rest with
            | [] => r_burst m = None
            | _ :: _ => exists i, r_mod m = Some i /\ (Z.of_nat (length rest) = mod_bl i \/ Z.of_nat (length rest) = mod_bl i + 2)
                                  /\ r_burst m = Some (map us2s_spec (firstn (Z.to_nat (mod_bl i)) rest))
            end)
        \/ (r_ver m = 1 /\ exists mts ci, r_ci m = Some ci /\ -32768 <= ci <= 32767 /\ 0 <= mts <= 255
            /\ mts_spec mts = (r_nope m, r_mod m, r_tset m, r_tsc m)
            /\ b = layout_rx_hdr 1 fn (tn + 8 * r) rssi toa ++ [mts] ++ layout_ci ci ++ rest
            /\ r_burst m = match rest with [] => None | _ :: _ => Some (map us2s_spec rest) end)).
Proof.
  intros Hb H.
  destruct b as [|b0 [|b1 [|b2 [|b3 [|b4 t5]]]]]; try (cbn in H; discriminate).
  unfold parse_rx in H. cbn [length Nat.ltb Nat.leb idx nth_error bind] in H.
  destruct (known (Z.shiftr b0 4)) eqn:Hk; cbn [negb] in H; [|discriminate].
  apply known_iff in Hk.
  unfold slice in H. cbn [skipn Nat.sub firstn un_be32 bind] in H.
  destruct t5 as [|b5 [|b6 [|b7 t8]]]; try (destruct Hk as [Hv | Hv]; rewrite Hv in H; cbn in H; discriminate).
  change (octets ([b0; b1; b2; b3; b4; b5; b6; b7] ++ t8)) in Hb. apply Forall_app in Hb as [Hhdr Ht8].
  destruct (rx_hdr_of_bytes _ _ _ _ _ _ _ _ Hhdr) as (r & Hr & Hfn & Htn & Hrssi & Ha & Hlay).
  set (fn := ((b1 * 256 + b2) * 256 + b3) * 256 + b4) in *.
  set (toa := if b6 * 256 + b7 <? 32768 then b6 * 256 + b7 else b6 * 256 + b7 - 65536) in *.
  (* the conjuncts before the version-specific part: by computation, or collected above *)
  destruct Hk as [Hv | Hv]; rewrite Hv in H, Hlay.
  - (* version 0: nothing more in the header *)
    apply (f_equal (fun h => h ++ t8)) in Hlay. cbn [app] in Hlay.
    change (rx_hdr_len 0) with (@Ok nat 8%nat) in H.
    cbn [length Nat.ltb Nat.leb idx nth_error bind skipn Nat.sub firstn un_i16] in H.
    change (0 >=? 1) with false in H. cbv iota in H. cbn [bind] in H.
    exists fn, (Z.land b0 7), (- b5), toa, r, t8.
    destruct t8 as [|x xs].
    + cbn [length Nat.eqb] in H. injection H as <-. cbn [r_ver r_fn r_tn r_rssi r_toa r_burst].
      repeat (split; [solve [auto]|]). left. repeat (split; [solve [auto]|]). reflexivity.
    + cbn [length Nat.eqb skipn] in H. change (0 =? 0) with true in H. cbv iota in H.
      change (length (x :: xs)) with (S (length xs)). set (bl := Z.of_nat (S (length xs))) in *.
      destruct (match pick_by_bl bl with Some i => Some i | None => pick_by_bl (bl - 2) end) as [i|] eqn:Ep in H; [|discriminate].
      injection H as <-. cbn [r_ver r_fn r_tn r_rssi r_toa r_burst r_mod].
      repeat (split; [solve [auto]|]). left. repeat (split; [solve [auto]|]).
      exists i. split; [reflexivity|]. split.
      * destruct (pick_by_bl bl) as [j|] eqn:E1.
        { injection Ep as <-. left. symmetry. apply pick_by_bl_spec, E1. }
        { right. apply pick_by_bl_spec in Ep. lia. }
      * f_equal. apply map_us2s_spec, Forall_firstn. exact Ht8.
  - (* version 1: MTS octet and C/I follow *)
    change (rx_hdr_len 1) with (@Ok nat 11%nat) in H.
    destruct t8 as [|b8 [|b9 [|b10 rest]]]; try (cbn in H; discriminate).
    cbn [length Nat.ltb Nat.leb idx nth_error bind skipn Nat.sub firstn un_i16] in H.
    change (1 >=? 1) with true in H. cbv iota in H. cbn [bind idx nth_error un_i16] in H.
    apply Forall_fold_right in Ht8. cbn [fold_right] in Ht8. destruct Ht8 as (H8 & H9 & H10 & Hrest). apply Forall_fold_right in Hrest.
    assert (Hmts : 0 <= b8 <= 255) by lia.
    destruct (i16_of_bytes b9 b10 H9 H10) as [Hc [Hc9 Hc10]].
    set (ci := if b9 * 256 + b10 <? 32768 then b9 * 256 + b10 else b9 * 256 + b10 - 65536) in *.
    apply (f_equal (fun h => h ++ [b8] ++ layout_ci ci ++ rest)) in Hlay.
    unfold layout_ci in Hlay at 1. rewrite Hc9, Hc10 in Hlay. cbn [app] in Hlay.
    rewrite (parse_mts_arith b8 H8) in H.
    destruct (mts_spec b8) as [[[np mt] ts] tc] eqn:Emts.
    exists fn, (Z.land b0 7), (- b5), toa, r, rest.
    destruct rest as [|x xs]; cbn [length Nat.eqb skipn] in H; [|change (1 =? 0) with false in H; cbv iota in H];
      injection H as <-; cbn [r_ver r_fn r_tn r_rssi r_toa r_burst r_nope r_mod r_tset r_tsc r_ci].
    all: repeat (split; [solve [auto]|]); right; split; [reflexivity|]; exists b8, ci; repeat (split; [solve [auto]|]).
    + reflexivity.
    + f_equal. change (us2s x :: map us2s xs) with (map us2s (x :: xs)). apply map_us2s_spec. assumption.
Qed.

(* non-vacuity: concrete accepted datagrams *)
Example parse_rx_layout_example :
  exists m, parse_rx ([7; 0; 41; 111; 255; 120; 128; 0] ++ repeat 0 148 ++ [0; 0]) = Ok m /\ r_fn m = Some 2715647 /\ r_rssi m = Some (-120) /\ r_toa m = Some (-32768).
Proof. eexists. split; [vm_compute; reflexivity|]. repeat split. Qed.

Lemma gen_mts_val m : spec_rx m -> r_ver m = 1 ->
  gen_mts m = if r_nope m then 128
              else match r_tsc m, r_mod m, r_tset m with
                   | Some t, Some i, Some s => t + 8 * (nth i [0; 4; 6; 8; 10; 12] 0 + s)
                   | _, _, _ => 0 end.
Proof.
  intros [_ [_ [_ [Hmts _]]]] Hver. unfold gen_mts. destruct (r_nope m) eqn:En; [apply gen_nope|].
  destruct (Hmts Hver eq_refl) as [i [s [t [-> [Hi [-> [-> [Ht Hs]]]]]]]].
  destruct (spec_tset_ok i s Hs) as [Hts Hs4]. fold (mts_val i s t).
  destruct (mts_rt i s t Hi Hts Hs4 ltac:(lia)) as [_ [_ ->]].
  unfold mod_coding. rewrite gen_mods. do 6 (destruct i as [|i]; [reflexivity|]). lia.
Qed.
