(* the receive size of DATAInterface.recv_raw_data (probed through a socket on every run, Gen.FakeTrxConst.data_recv_size) holds the
   longest valid L1 -> TRX datagram, so the socket layer never cuts what the encoder / trxcon emits (C04) *)
From Coq Require Import ZArith List Bool Lia.
From OBB Require Import Gen.TrxdConst Gen.FakeTrxConst Model.Trxd Proofs.TrxdBase Proofs.TrxdTx.
Import ListNotations.
Open Scope Z_scope.

Lemma gen_tx_fits m l b : gen_tx l m = Ok b -> Z.of_nat (length b) <= 452 /\ 452 <= data_recv_size.
Proof.
  intros H. split; [|unfold data_recv_size; lia].
  destruct (gen_tx_inv _ _ _ H) as (v & f & t & p & bu & _ & _ & _ & _ & Hl & ->).
  unfold layout_tx. rewrite !app_length. cbn [length]. destruct (_ && _); cbn [length]; lia.
Qed.

Lemma firstn_recv_id m l b : gen_tx l m = Ok b -> firstn (Z.to_nat data_recv_size) b = b.
Proof.
  intros H. destruct (gen_tx_fits _ _ _ H) as [H1 H2]. apply firstn_all2. lia.
Qed.
