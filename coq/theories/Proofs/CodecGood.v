(* C17: symbolic evaluation of concrete definitions.  `good fs e e0 R cv b` packages "the values fit" (so that the
   C16 round-trip theorem applies) with "the encoding is exactly b"; a step lemma for each kind of field the TRXD PDUs
   use (none for nested envelopes) lets a definition with symbolic field values be walked field by field. *)
From Coq Require Import ZArith List Lia.
From OBB Require Import Model.Codec Proofs.CodecInt Proofs.CodecBits Proofs.CodecRT.
Import ListNotations.
Open Scope Z_scope.

Definition good (fs:list field) (e e0:env) (R:nat) (cv:env) (b:list Z) : Prop :=
  fits fs e e0 R cv (length b) /\ egood fs e b.
Definition items_good (item:list field) (vs vcs:list val) (b:list Z) : Prop :=
  fits_items item vs vcs (length b) /\ forall k, (lsize item < k)%nat -> enc_items (enc k item) vs = Ok b.

Lemma good_nil e e0 R : good [] e e0 R [] [].
Proof. split; [constructor|apply egood_nil]. Qed.

Lemma good_absent f fs e e0 R cv b :
  get_pres (fpres f) e = Ok false -> get_pres (fpres f) e0 = Ok false -> good fs e e0 R cv b -> good (f :: fs) e e0 R cv b.
Proof. intros Hpe Hp0 [Hf He]. split; [apply fits_absent|apply egood_absent]; assumption. Qed.

(* z and its decomposition are separate premises so that callers can keep z symbolic *)
Lemma good_uint nm n p le sg off mult z raw bs fs e e0 R cv b :
  get_pres p e = Ok true -> get_pres p e0 = Ok true -> (1 <= n)%nat -> mult <> 0 ->
  lookup nm e = Some (VInt z) -> z = raw * mult + off -> enc_int n le sg raw = Ok bs ->
  good fs e (e0 ++ [(nm, VInt z)]) R cv b ->
  good (FUint nm (LFix n) p le sg off mult :: fs) e e0 R ((nm, VInt z) :: cv) (bs ++ b).
Proof.
  intros Hpe Hp0 Hn Hm Hl -> Hbs [Hf He]. destruct (int_rt _ _ _ _ _ Hn Hbs) as [_ [Hlen _]]. split.
  - rewrite app_length, Hlen. apply fits_uint; try assumption. apply (enc_int_inv _ _ _ _ _ Hn Hbs).
  - exact (egood_uint _ _ _ _ _ _ _ _ _ _ _ _ Hpe Hn Hm Hl Hbs He).
Qed.

Lemma good_buf nm l p bb fs e e0 R cv b :
  get_pres p e = Ok true -> get_pres p e0 = Ok true -> lookup nm e = Some (VBytes bb) ->
  get_len l e0 (length bb + length b + R) = Ok (length bb) ->
  good fs e (e0 ++ [(nm, VBytes bb)]) R cv b ->
  good (FBuf nm l p :: fs) e e0 R ((nm, VBytes bb) :: cv) (bb ++ b).
Proof.
  intros Hpe Hp0 Hl Hgl [Hf He]. split.
  - rewrite app_length. apply fits_buf; assumption.
  - exact (egood_buf _ _ _ _ _ _ _ _ _ Hpe Hl Hgl He).
Qed.

Lemma good_spare n filler fs e e0 R cv b :
  good fs e e0 R cv b -> good (FSpare (LFix (S n)) PAlways filler :: fs) e e0 R cv (repeat filler (S n) ++ b).
Proof.
  intros [Hf He]. split.
  - rewrite app_length, repeat_length. apply fits_spare; try reflexivity. exact Hf.
  - apply egood_spare; [reflexivity|reflexivity|exact He].
Qed.

(* a bit-field set whose packed integer has been computed: blob *)
Lemma good_bits l p lsb bfs bcv blob fs e e0 R cv b :
  get_pres p e = Ok true -> get_pres p e0 = Ok true -> bits_wf l bfs -> bits_fit (bits_order lsb bfs) e bcv ->
  enc_bits (bits_layout l lsb bfs) e 0 = Ok blob ->
  good fs e (e0 ++ bcv) R cv b ->
  good (FBits l p lsb bfs :: fs) e e0 R (bcv ++ cv) (to_be (bits_len l bfs) blob ++ b).
Proof.
  intros Hpe Hp0 Hwf Hbf Hblob [Hf He]. destruct (bits_blob l lsb bfs e bcv Hwf Hbf) as [blob' [Hb1 [Hb2 _]]].
  rewrite Hb1 in Hblob. injection Hblob as <-. split.
  - rewrite app_length, to_be_length. apply fits_bits; assumption.
  - exact (egood_bits _ _ _ _ _ _ _ _ Hpe (proj1 Hwf) Hb1 Hb2 He).
Qed.

Lemma good_seq nm l p item vs vcs bi fs e e0 R cv b :
  get_pres p e = Ok true -> get_pres p e0 = Ok true -> lookup nm e = Some (VList vs) -> items_good item vs vcs bi ->
  get_len l e0 (length bi + length b + R) = Ok (length bi) ->
  good fs e (e0 ++ [(nm, VList vcs)]) R cv b ->
  good (FSeq nm l p item :: fs) e e0 R ((nm, VList vcs) :: cv) (bi ++ b).
Proof.
  intros Hpe Hp0 Hl [Hfi Hei] Hgl [Hf He]. split.
  - rewrite app_length. eapply fits_seqf; eassumption.
  - exact (egood_seq _ _ _ _ _ _ _ _ _ _ _ Hpe Hl Hei Hgl He).
Qed.

Lemma items_good_nil item : items_good item [] [] [].
Proof. split; [constructor|]. intros; reflexivity. Qed.

Lemma items_good_cons item d dcv b1 vs vcs bs :
  good item d [] (length bs) dcv b1 -> NoDup (keys dcv) -> (1 <= length b1)%nat -> items_good item vs vcs bs ->
  items_good item (VDict d :: vs) (VDict dcv :: vcs) (b1 ++ bs).
Proof.
  intros [Hf He] Hnd Hl [Hfi Hei]. split.
  - rewrite app_length. apply fi_cons; assumption.
  - intros k Hk. cbn [enc_items]. rewrite (He k Hk). cbn [wrapE bind]. rewrite (Hei k Hk). reflexivity.
Qed.

Lemma good_top fs e cv b : good fs e [] 0 cv b -> NoDup (keys cv) -> proto_ok fs = true ->
  encode fs e = Ok b /\ decode true fs b = Ok (cv, length b) /\ decode false fs b = Ok (cv, length b).
Proof.
  intros [Hf He] Hnd Hpo. pose proof (encode_egood fs e b Hpo He) as Henc. split; [exact Henc|].
  split; apply (enc_dec_top fs e cv (length b) b _ (conj Hf Hnd) Henc).
Qed.
