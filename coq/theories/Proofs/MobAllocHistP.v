(* Lemmas about Model/MobAllocHist.v (C20): SI4 stored and re-decoded when SI1 arrives. *)
From Coq Require Import ZArith List Bool Lia ZifyBool.
From OBB Require Import Base.Lists Gen.MobAllocConst Gen.MobAllocSi4Const Model.MobAlloc Model.MobAllocSi4 Model.MobAllocHist Proofs.MobAllocP Proofs.MobAllocSi4P.
Import ListNotations.
Open Scope Z_scope.

(* si4_msg after memcpy(s->si4_msg, si, OSMO_MIN(len, 23)) *)
Definition stored (msg buf : list Z) : list Z :=
  firstn (Z.to_nat (Z.min (Zlength msg) 23)) msg ++ skipn (Z.to_nat (Z.min (Zlength msg) 23)) buf.

Lemma store_some buf msg : Zlength buf = 23 -> store buf msg = Some (stored msg buf).
Proof. intros Hb. unfold store, c_SI4_MSG_SIZE. cbv zeta. replace (Zlength buf <? Z.min (Zlength msg) 23) with false by lia. reflexivity. Qed.

Lemma stored_length msg buf : Zlength buf = 23 -> Zlength (stored msg buf) = 23.
Proof. intros Hb. unfold stored. pose proof (Zlength_nonneg msg). rewrite Zlength_app, Zlength_firstn, Zlength_skipn by lia. lia. Qed.

Lemma stored_octets msg buf : octets msg -> octets buf -> octets (stored msg buf).
Proof. intros Hm Hb. apply octets_app. split; [apply octets_firstn, Hm|apply octets_skipn, Hb]. Qed.

(* a message whose first octets K fit the buffer leaves them in front of it *)
Lemma stored_app K tail buf : Zlength K <= 23 -> exists X, stored (K ++ tail) buf = K ++ X.
Proof. intros HK. unfold stored. set (n := Z.to_nat _). exists (firstn (n - length K) tail ++ skipn n buf).
  rewrite firstn_app, firstn_all2, <- app_assoc; [reflexivity|]. unfold n. rewrite Zlength_app.
  pose proof (Zlength_nonneg tail). rewrite (Zlength_correct K) in *. lia. Qed.

(* gsm48_decode_sysinfo4 on a message that has its fixed part: the memcpy, then the tail on the octets from 13 on *)
Lemma sysinfo4_eq msg x : 13 <= Zlength msg -> Zlength (c_buf x) = 23 ->
  sysinfo4 msg x =
    match si4_tail (skipn 13 msg) (c_si1 x) (c_st x) (c_cb x) with
    | SOOB => COOB
    | SRet rc s c _ _ => CRet rc (mkcell s c (c_si1 x) (if rc =? 0 then 1 else c_si4 x) (stored msg (c_buf x)))
    end.
Proof. intros Hl Hb. unfold sysinfo4. rewrite store_some by exact Hb.
  replace (Zlength msg <? c_SI4_HDR_SIZE) with false by (unfold c_SI4_HDR_SIZE; lia). reflexivity. Qed.

Lemma sysinfo4_safe msg x : octets msg -> 13 <= Zlength msg -> cell_ok x ->
  exists rc x', sysinfo4 msg x = CRet rc x' /\ cell_ok x' /\ c_si1 x' = c_si1 x /\
    c_buf x' = stored msg (c_buf x) /\
    ((rc = 0 /\ c_si4 x' = 1) \/ (rc = -5 /\ c_st x' = c_st x /\ c_si4 x' = c_si4 x)).
Proof. intros Hm Hl (Hb & Hbo & Hf & Hh). rewrite sysinfo4_eq by assumption.
  destruct (si4_ok _ (c_si1 x) (c_st x) (c_cb x) (octets_skipn 13 _ Hm) Hf Hh) as (c' & rc & s' & off & lft & -> & _ & _ & _ & Hrc & Hf' & Hh').
  exists rc. eexists. split; [reflexivity|]. cbn [c_st c_cb c_si1 c_si4 c_buf]. split.
  { split; [apply stored_length, Hb|]. split; [apply stored_octets; assumption|]. split; assumption. }
  split; [reflexivity|]. split; [reflexivity|].
  destruct Hrc as [->|[-> ->]]; [left; split; reflexivity|right; split; [reflexivity|split; reflexivity]]. Qed.

(* the re-decode is the SI4 tail on the octets si4_msg[13 .. 22], with si1 = 1 and the new table; its result is ignored *)
Lemma sysinfo1_redecode freq1 x : Zlength (c_buf x) = 23 -> c_si4 x <> 0 ->
  sysinfo1 freq1 x =
    match si4_tail (skipn 13 (c_buf x)) 1 (mkst freq1 (s_hop (c_st x)) (s_hlen (c_st x))) (c_cb x) with
    | SOOB => COOB
    | SRet rc s c _ _ => CRet 0 (mkcell s c 1 (if rc =? 0 then 1 else c_si4 x) (c_buf x))
    end.
Proof. intros Hb H4. unfold sysinfo1. cbv zeta. replace (c_si4 x =? 0) with false by lia.
  replace (Zlength (c_buf x) <? c_SI4_MSG_SIZE) with false by (unfold c_SI4_MSG_SIZE; lia).
  rewrite firstn_all2 by (rewrite Zlength_correct in Hb; unfold c_SI4_MSG_SIZE; lia).
  rewrite sysinfo4_eq by (cbn [c_buf]; lia). cbn [c_st c_cb c_si1 c_si4 c_buf]. unfold stored. rewrite firstn_skipn.
  destruct (si4_tail _ _ _ _) as [rc s c off lft|]; reflexivity. Qed.

Lemma sysinfo1_first freq1 x : c_si4 x = 0 ->
  sysinfo1 freq1 x = CRet 0 (mkcell (mkst freq1 (s_hop (c_st x)) (s_hlen (c_st x))) (c_cb x) 1 0 (c_buf x)).
Proof. intros E. unfold sysinfo1. cbv zeta. rewrite E. reflexivity. Qed.

Lemma sysinfo1_safe freq1 x : cell_ok x -> Zlength freq1 = 1024 ->
  exists x', sysinfo1 freq1 x = CRet 0 x' /\ cell_ok x' /\ c_si1 x' = 1 /\ c_buf x' = c_buf x.
Proof. intros (Hb & Hbo & Hf & Hh) H1. destruct (Z.eq_dec (c_si4 x) 0) as [E0|E0].
  - rewrite sysinfo1_first by exact E0. eexists. split; [reflexivity|].
    cbn [c_st c_cb c_si1 c_si4 c_buf]. split; [|split; reflexivity]. repeat split; assumption.
  - rewrite sysinfo1_redecode by assumption.
    destruct (si4_ok _ 1 (mkst freq1 (s_hop (c_st x)) (s_hlen (c_st x))) (c_cb x) (octets_skipn 13 _ Hbo) H1 Hh)
      as (c' & rc & s' & off & lft & -> & _ & _ & _ & _ & Hf' & Hh').
    eexists. split; [reflexivity|]. cbn [c_st c_cb c_si1 c_si4 c_buf]. split; [|split; reflexivity]. repeat split; assumption. Qed.

Lemma cd_fields_idem pre c : cd_fields pre (cd_fields pre c) = cd_fields pre c.
Proof. destruct pre as [|t [|a [|b2 [|b3 [|? ?]]]]]; try reflexivity. cbn [cd_fields].
  destruct ((b2 / 16) mod 2 =? 1); reflexivity. Qed.

Lemma order_independent hdr pre l v tail x0 freq1 :
  Zlength hdr = 13 -> octets (hdr ++ pre ++ 114 :: l :: v ++ tail) -> cd_ie pre -> Zlength v = l ->
  Zlength (hdr ++ pre ++ 114 :: l :: v) <= 23 ->
  cell_ok x0 -> c_si1 x0 = 0 -> c_si4 x0 = 0 -> Zlength freq1 = 1024 ->
  exists rc s' x1 x1',
    decode freq1 v l (s_hop (c_st x0)) (s_hlen (c_st x0)) 1 = Ok rc s' /\
    let msg := hdr ++ pre ++ 114 :: l :: v ++ tail in
    let xe := mkcell s' (cd_fields pre (c_cb x0)) 1 1 (stored msg (c_buf x0)) in
    sysinfo4 msg x0 = CRet 0 x1 /\ c_st x1 = c_st x0 /\ sysinfo1 freq1 x1 = CRet 0 xe /\
    sysinfo1 freq1 x0 = CRet 0 x1' /\ sysinfo4 msg x1' = CRet 0 xe.
Proof. intros Hh13 Hoct Hpre Hv Hlen (Hb & Hbo & Hf & Hh) H1 H4 Hf1.
  apply octets_app in Hoct as [_ Hop]. apply octets_app in Hop as [Hopre Hoie].
  assert (Hl : 0 <= l < 256) by (apply Forall_cons_iff in Hoie as [_ Hoie]; apply Forall_cons_iff in Hoie as [Hl _]; exact Hl).
  destruct (decode_total freq1 v l (s_hop (c_st x0)) (s_hlen (c_st x0)) 1 Hf1 Hh ltac:(lia) ltac:(lia)) as (rc & s' & Ed & _).
  set (P := pre ++ 114 :: l :: v ++ tail).
  assert (Hsk : forall X, skipn 13 (hdr ++ X) = X).
  { intros X. replace 13%nat with (length hdr + 0)%nat by (rewrite Zlength_correct in Hh13; lia). apply skipn_app_plus. }
  assert (Hml : 13 <= Zlength (hdr ++ P)) by (rewrite Zlength_app; pose proof (Zlength_nonneg P); lia).
  (* the buffer after the memcpy still starts with the complete IE *)
  destruct (stored_app (hdr ++ pre ++ 114 :: l :: v) tail (c_buf x0) Hlen) as (X & HX).
  rewrite <- !app_assoc, <- !app_comm_cons in HX. fold P in HX.
  exists rc, s', (mkcell (c_st x0) (cd_fields pre (c_cb x0)) 0 1 (stored (hdr ++ P) (c_buf x0))),
         (mkcell (mkst freq1 (s_hop (c_st x0)) (s_hlen (c_st x0))) (c_cb x0) 1 0 (c_buf x0)).
  split; [exact Ed|]. cbv zeta. fold P. split.
  { rewrite sysinfo4_eq, Hsk, H1 by assumption. unfold P. rewrite si4_before_si1 by assumption. reflexivity. }
  split; [reflexivity|]. split.
  { rewrite sysinfo1_redecode by (cbn [c_buf c_si4]; first [apply stored_length, Hb|lia]). cbn [c_st c_cb c_si4 c_buf].
    rewrite HX, Hsk, si4_complete by assumption. change (1 =? 0) with false. cbv iota. cbn [s_freq s_hop s_hlen].
    rewrite Ed, cd_fields_idem. reflexivity. }
  split; [apply sysinfo1_first, H4|].
  rewrite sysinfo4_eq by (cbn [c_buf]; assumption). cbn [c_st c_cb c_si1 c_si4 c_buf]. rewrite Hsk. unfold P.
  rewrite si4_complete by assumption. change (1 =? 0) with false. cbv iota. cbn [s_freq s_hop s_hlen]. rewrite Ed. reflexivity. Qed.

(* what the buffer does to other messages: concrete histories *)
Definition hobs (r : cres) : list Z :=
  match r with CRet rc x => [rc; c_si1 x; c_si4 x; s_hlen (c_st x)] ++ firstn 4 (s_hop (c_st x)) | COOB => [-998] end.
Definition after (r : cres) (f : cell -> cres) : cres := match r with CRet _ x => f x | COOB => COOB end.
(* cell allocation {0, 10, 20, 30} brought by SI1; before SI1 no SERV flag; an all-zero buffer; empty list *)
Definition T1 : list Z := tbl [0; 10; 20; 30] 64.
Definition x00 (buf : list Z) : cell := mkcell (mkst (map (fun m => Z.land m 254) T1) (repeat 7 64) 0) cb0 0 0 buf.
Definition hdr0 : list Z := repeat 0 13.

Lemma x00_ok buf : Zlength buf = 23 -> octets buf -> cell_ok (x00 buf).
Proof. intros Hb Ho. split; [exact Hb|]. split; [exact Ho|]. split; [|reflexivity].
  cbn [x00 c_st s_freq]. rewrite Zlength_map. apply tbl_length. Qed.

(* a 22-octet message (channel description + mobile allocation 0b1011 + 2 rest octets): both orders give 10 20 0 *)
Definition msg22 : list Z := hdr0 ++ [100; 33; 181; 218; 114; 1; 11; 43; 43].
Example ex_order_a : hobs (after (sysinfo4 msg22 (x00 (repeat 0 23))) (sysinfo1 T1)) = [0; 1; 1; 3; 10; 20; 0; 7].
Proof. unfold x00, T1. rewrite tbl_upfrom. vm_compute. reflexivity. Qed.
Example ex_order_b : hobs (after (sysinfo1 T1 (x00 (repeat 0 23))) (sysinfo4 msg22)) = [0; 1; 1; 3; 10; 20; 0; 7].
Proof. unfold x00, T1. rewrite tbl_upfrom. vm_compute. reflexivity. Qed.
Example ex_order_hyp : Zlength msg22 <= 23 /\ cell_ok (x00 (repeat 0 23)) /\ Zlength T1 = 1024.
Proof. split; [vm_compute; discriminate|]. split; [|apply tbl_length]. apply x00_ok; [reflexivity|].
  apply Forall_forall. intros b Hb. apply repeat_spec in Hb. lia. Qed.

(* a 25-octet message whose Mobile Allocation IE (6 octets) ends behind octet 23: the buffer keeps 23 octets, the re-decode at SI1
   finds the IE cut (-EIO, ignored) and the list stays empty, although SI1 first / SI4 second builds 10 20 0 *)
Definition msg25 : list Z := hdr0 ++ [100; 33; 181; 218; 114; 6; 0; 0; 0; 0; 0; 11].
Lemma order_long_refuted :
  Zlength msg25 = 25 /\
  hobs (after (sysinfo4 msg25 (x00 (repeat 0 23))) (sysinfo1 T1)) = [0; 1; 1; 0; 7; 7; 7; 7] /\
  hobs (after (sysinfo1 T1 (x00 (repeat 0 23))) (sysinfo4 msg25)) = [0; 1; 1; 3; 10; 20; 0; 7].
Proof. unfold x00, T1. rewrite tbl_upfrom. split; [reflexivity|]. split; vm_compute; reflexivity. Qed.

(* a 13-octet message (fixed part only, no IE at all) into a buffer that still holds '72 01 0b' of an earlier message at octets 13..15:
   the re-decode at SI1 takes the old octets for a Mobile Allocation IE and builds 10 20 0; SI1 first / SI4 second leaves the list empty *)
Definition stale_buf : list Z := repeat 0 13 ++ [114; 1; 11] ++ repeat 0 7.
Lemma short_stale_refuted :
  Zlength hdr0 = 13 /\ cell_ok (x00 stale_buf) /\
  hobs (after (sysinfo4 hdr0 (x00 stale_buf)) (sysinfo1 T1)) = [0; 1; 1; 3; 10; 20; 0; 7] /\
  hobs (after (sysinfo1 T1 (x00 stale_buf)) (sysinfo4 hdr0)) = [0; 1; 1; 0; 7; 7; 7; 7].
Proof. split; [reflexivity|]. split.
  { apply x00_ok; [reflexivity|]. apply Forall_forall. intros b Hb. unfold stale_buf in Hb.
    apply in_app_or in Hb as [Hb|Hb]; [apply repeat_spec in Hb; lia|].
    apply in_app_or in Hb as [Hb|Hb]; [cbn [In] in Hb; lia|apply repeat_spec in Hb; lia]. }
  unfold x00, T1. rewrite tbl_upfrom. split; vm_compute; reflexivity. Qed.
