(* C06 - the vocabulary of Props/C06.v (protocol numbers written out), its translation into the model's, and the
   two defects of the source on concrete inputs *)
From Coq Require Import ZArith List Bool Lia ZifyBool.
From OBB Require Import Gen.SercommConst Model.Sercomm Proofs.SercommP Proofs.SercommTxP.
Import ListNotations.
Open Scope Z_scope.

Definition escape_free (d : Z) : Prop := d <> 126 /\ d <> 125 /\ d <> 0.

Lemma escape_free_ok d : escape_free d -> needs_esc d = false.
Proof. apply needs_esc_spec. Qed.

Fixpoint good_stream_lit (cap : Z) (its : list item) : Prop :=
  match its with
  | [] => True
  | Noise n :: r => Forall (fun b => b <> 126) n /\ good_stream_lit cap r
  | Frame d p :: r => escape_free d /\ len p < cap /\ good_stream_lit cap r
  end.

Lemma good_stream_of_lit cap its : good_stream_lit cap its -> good_stream cap its.
Proof.
  induction its as [|[n|d p] its IH]; cbn [good_stream_lit good_stream]; [auto| |].
  - intros [Hn Hg]. split; [exact Hn|auto].
  - intros (Hd & Hl & Hg). split; [apply escape_free_ok, Hd|auto].
Qed.

Fixpoint wf_stream_lit (cap : Z) (skew : bool) (its : list item) : Prop :=
  match its with
  | [] => True
  | Noise n :: r => Forall (fun b => b <> 126) n /\ (skew = true -> n = []) /\ wf_stream_lit cap skew r
  | Frame d p :: r =>
      escape_free d /\ wf_stream_lit cap (if len p <? cap then false else skew || (cap <? len p)) r
  end.

Lemma wf_stream_of_lit cap its : forall skew, wf_stream_lit cap skew its -> wf_stream cap skew its.
Proof.
  induction its as [|[n|d p] its IH]; intros skew; cbn [wf_stream_lit wf_stream]; [auto| |].
  - intros (Hn & Hs & Hw). auto.
  - intros (Hd & Hw). split; [apply escape_free_ok, Hd|auto].
Qed.

(* no proof needs it: sendmsg to a missing queue is a no-op in tx_step *)
Definition valid_hist (h : list op) : Prop :=
  Forall (fun o => match o with Send d _ => 0 <= d < 129 | Pull => True end) h.

Definition valid_hist_e2e (cap : Z) (h : list op) : Prop :=
  Forall (fun o => match o with Send d p => 0 <= d < 129 /\ escape_free d /\ len p < cap | Pull => True end) h.

Lemma valid_msg_lit cap x : 0 <= fst x < 129 /\ escape_free (fst x) /\ len (snd x) < cap -> valid_msg cap x.
Proof. intros (H1 & H2 & H3). split; [exact H1|]. split; [apply escape_free_ok, H2|exact H3]. Qed.

Lemma valid_hist_e2e_ok cap h : valid_hist_e2e cap h -> Forall (valid_msg cap) (sends h).
Proof.
  induction 1 as [|[d p|] h Ho _ IH]; cbn [sends]; [constructor| |exact IH].
  constructor; [apply (valid_msg_lit cap (d, p)), Ho|exact IH].
Qed.

Lemma s_dlci0_refuted :
  ~ escape_free 0 /\ 0 <= 0 < 129 /\ len [65] < 2048 /\
  frame 0 [65] = [126; 125; 32; 3; 65; 126] /\
  msgs (snd (rx_run 2048 rx0 (frame 0 [65]))) = [(125, [3; 65])] /\
  msgs (snd (rx_run 2048 rx0 (frame 0 [65]))) <> [(0, [65])].
Proof.
  rewrite (rx_frame_escaped 2048 0 [65] eq_refl eq_refl). unfold escape_free.
  split; [lia|]. split; [lia|]. repeat split; discriminate.
Qed.

(* the witness of SercommP.noise_after_overlong_refuted at the capacity of the host build *)
Lemma s_noise_after_overlong_refuted :
  wf_stream_lit 2048 false [Frame 5 (repeat 65 2049); Frame 5 [1]; Frame 5 [2]; Frame 5 [3]] /\
  expect 2048 false [Frame 5 (repeat 65 2049); Frame 5 [1]; Frame 5 [2]; Frame 5 [3]] = [(5, [2]); (5, [3])] /\
  Forall (fun b => b <> 126) [9; 1; 2] /\
  msgs (snd (rx_run 2048 rx0 (render [Frame 5 (repeat 65 2049); Noise [9; 1; 2]; Frame 5 [1]; Frame 5 [2]; Frame 5 [3]])))
  = [(9, [2]); (126, [3; 2]); (5, [3])].
Proof.
  split; [vm_compute; repeat split; discriminate|]. split; [vm_compute; reflexivity|].
  split; [repeat constructor; discriminate|vm_compute; reflexivity].
Qed.
