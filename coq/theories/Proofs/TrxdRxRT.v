(* RxMsg round trip (C01) and layout (C04) *)
From Coq Require Import ZArith List Bool Lia ZifyBool.
From OBB Require Import Base.Lists Base.Range Gen.TrxdConst Model.Trxd Proofs.TrxdBase Proofs.TrxdTx Proofs.TrxdRx.
Import ListNotations.
Open Scope Z_scope.

Definition soft_ok (m : rxmsg) : Prop :=
  match r_burst m with Some b => Forall (fun s => -127 <= s <= 127) b | None => True end.

(* MTS octet: finite sweep over 6 modulations x 4 sets x 8 TSC under the TSC-set validity guard *)
Definition tset_ok (i : nat) (s : Z) : bool := if Nat.eqb i 0 then (0 <=? s) && (s <? 4) else (0 <=? s) && (s <? 2).
Definition mts_val (i : nat) (s t : Z) : Z := Z.lor (Z.lor (Z.land t 7) (Z.shiftl (mod_coding i) 3)) (Z.shiftl s 3).
Definition mts_dec (x y : bool * option nat * option Z * option Z) : {x = y} + {x <> y}.
Proof. repeat decide equality. Defined.
Lemma spec_tset_ok i s : (if Nat.eqb i 0 then 0 <= s <= 3 else 0 <= s <= 1) -> tset_ok i s = true /\ 0 <= s < 4.
Proof. unfold tset_ok. destruct (Nat.eqb i 0); lia. Qed.
Lemma sweep_mts : forallb (fun i => forallb (fun s => forallb (fun t =>
    implb (tset_ok (Z.to_nat i) s)
      ((if mts_dec (parse_mts (mts_val (Z.to_nat i) s t)) (false, Some (Z.to_nat i), Some s, Some t) then true else false)
       && (0 <=? mts_val (Z.to_nat i) s t) && (mts_val (Z.to_nat i) s t <? 128)
       && (mts_val (Z.to_nat i) s t =? t + 8 * (mod_coding (Z.to_nat i) + s))))
    (range 0 8)) (range 0 4)) (range 0 6) = true.
Proof. vm_compute. reflexivity. Qed.
Lemma mts_rt i s t : (i < 6)%nat -> tset_ok i s = true -> 0 <= s < 4 -> 0 <= t < 8 ->
  parse_mts (mts_val i s t) = (false, Some i, Some s, Some t) /\ 0 <= mts_val i s t < 128
  /\ mts_val i s t = t + 8 * (mod_coding i + s).
Proof.
  intros Hi Hs Hs' Ht. assert (Hi' : 0 <= Z.of_nat i < 6) by lia.
  pose proof (forallb_range _ _ _ (forallb_range _ _ _ (forallb_range _ _ _ sweep_mts _ Hi') s Hs') t Ht) as H.
  cbv beta in H. rewrite Nat2Z.id, Hs in H. cbn [implb] in H.
  destruct (mts_dec _ _) as [E|]; [split; [exact E|lia]|discriminate].
Qed.

(* documented layout of an Rx message: common header, negated RSSI, BE ToA256, (v1: MTS octet, BE C/I), unsigned soft bits 127 - s *)
Definition layout_rx_hdr (ver fn tn rssi toa : Z) : list Z :=
  [ver * 16 + tn; fn / 16777216 mod 256; fn / 65536 mod 256; fn / 256 mod 256; fn mod 256; - rssi;
   toa mod 65536 / 256; toa mod 65536 mod 256].
Definition layout_ci (ci : Z) : list Z := [ci mod 65536 / 256; ci mod 65536 mod 256].
Definition usbits (b : list Z) : list Z := map (fun s => 127 - s) b.

Lemma usbits_length b : length (usbits b) = length b.
Proof. apply map_length. Qed.

Lemma map_s2us b : Forall (fun s => -128 <= s <= 127) b -> map s2us b = usbits b.
Proof. induction 1 as [|s l Hs _ IH]; cbn [map usbits]; [reflexivity|]. fold (usbits l). rewrite IH, s2us_f by lia. reflexivity. Qed.

(* C04: the octets are exactly the documented layout *)
Lemma gen_rx_layout m l b : gen_rx l m = Ok b -> (match r_burst m with Some bs => Forall (fun s => -128 <= s <= 127) bs | None => True end) ->
  exists fn tn rssi toa, r_fn m = Some fn /\ r_tn m = Some tn /\ r_rssi m = Some rssi /\ r_toa m = Some toa /\
    b = layout_rx_hdr (r_ver m) fn tn rssi toa
        ++ (if r_ver m =? 1 then [gen_mts m] ++ layout_ci (oz (r_ci m)) else [])
        ++ (match r_burst m with Some bs => usbits bs | None => [] end)
        ++ (if l && (r_ver m =? 0) then [0; 0] else []).
Proof.
  intros Hgen Hbytes. apply gen_inv in Hgen as [Hval ->]. apply validate_rx_iff in Hval.
  destruct Hval as [[Hver [[f [Ef Hf]] [t [Et Ht]]]] [[r [Er Hr]] [[a [Ea Ha]] _]]].
  exists f, t, r, a. repeat (split; [assumption|]).
  rewrite Ef, Et, Er, Ea. unfold gen_common, layout_rx_hdr, layout_ci, be32, i16, oz at 1 2 3 4. cbv zeta.
  rewrite b0_val by lia.
  assert (E : (r_ver m >=? 1) = (r_ver m =? 1)) by (destruct Hver as [-> | ->]; reflexivity). rewrite E.
  destruct (r_burst m) as [bs|]; [rewrite map_s2us by assumption|]; reflexivity.
Qed.

(* version 0 guesses the modulation from the number of octets behind the header, retrying with two less (legacy padding) *)
Lemma parse_rx_layout_v0 f t r a bs : 0 <= f < 4294967296 -> 0 <= t < 8 -> -32768 <= a < 32768 ->
  parse_rx (layout_rx_hdr 0 f t r a ++ bs) =
  let msg md bo := {| r_ver := 0; r_fn := Some f; r_tn := Some t; r_rssi := Some r; r_toa := Some a; r_nope := false;
                      r_mod := Some md; r_tset := None; r_tsc := None; r_ci := None; r_burst := bo |} in
  if Nat.eqb (length bs) 0 then Ok (msg GMSK_IDX None) else
  let bl := Z.of_nat (length bs) in
  match (match pick_by_bl bl with Some i => Some i | None => pick_by_bl (bl - 2) end) with
  | None => VErr
  | Some i => Ok (msg i (Some (map us2s (firstn (Z.to_nat (mod_bl i)) bs))))
  end.
Proof.
  intros Hf Ht Ha. unfold parse_rx, layout_rx_hdr. cbn [app length Nat.ltb Nat.leb idx nth_error bind].
  destruct (b0_fields 0 t Ht) as [-> ->]. cbn [known known_versions existsb Z.eqb orb negb].
  change (slice _ 1 5) with (be32 f). rewrite be32_rt by exact Hf.
  change (slice _ 6 8) with (i16 a). rewrite i16_rt by exact Ha.
  cbn [bind rx_hdr_len Z.eqb Z.geb Z.compare Nat.ltb Nat.leb Nat.eqb skipn]. rewrite Z.opp_involutive.
  destruct bs; reflexivity.
Qed.

Lemma parse_rx_layout_v1 f t r a mts c bs : 0 <= f < 4294967296 -> 0 <= t < 8 -> -32768 <= a < 32768 -> -32768 <= c < 32768 ->
  parse_rx (layout_rx_hdr 1 f t r a ++ [mts] ++ layout_ci c ++ bs) =
  let '(np, mt, ts, tc) := parse_mts mts in
  Ok {| r_ver := 1; r_fn := Some f; r_tn := Some t; r_rssi := Some r; r_toa := Some a; r_nope := np;
        r_mod := mt; r_tset := ts; r_tsc := tc; r_ci := Some c;
        r_burst := if Nat.eqb (length bs) 0 then None else Some (map us2s bs) |}.
Proof.
  intros Hf Ht Ha Hc. unfold parse_rx, layout_rx_hdr, layout_ci. cbn [app length Nat.ltb Nat.leb idx nth_error bind].
  destruct (b0_fields 1 t Ht) as [-> ->]. cbn [known known_versions existsb Z.eqb Pos.eqb orb negb].
  change (slice _ 1 5) with (be32 f). rewrite be32_rt by exact Hf.
  change (slice _ 6 8) with (i16 a). rewrite i16_rt by exact Ha.
  change (slice _ 9 11) with (i16 c). rewrite i16_rt by exact Hc.
  cbn [bind rx_hdr_len Z.eqb Z.geb Z.compare Pos.compare Nat.ltb Nat.leb Nat.eqb skipn]. rewrite Z.opp_involutive.
  destruct (parse_mts mts) as [[[np mt] ts] tc]. destruct bs; reflexivity.
Qed.

Lemma pick_by_bl_v0 n pad : (n = 148%nat \/ n = 444%nat) -> (pad = 0%nat \/ pad = 2%nat) ->
  exists i, (match pick_by_bl (Z.of_nat (n + pad)) with Some i => Some i | None => pick_by_bl (Z.of_nat (n + pad) - 2) end) = Some i
            /\ mod_bl i = Z.of_nat n.
Proof.
  intros [-> | ->] [-> | ->]; [exists 0%nat | exists 0%nat | exists 1%nat | exists 1%nat]; split; reflexivity.
Qed.

Lemma carried_fields x :
  r_ver (carried x) = r_ver x /\ r_fn (carried x) = r_fn x /\ r_tn (carried x) = r_tn x /\ r_rssi (carried x) = r_rssi x /\
  r_toa (carried x) = r_toa x /\ r_burst (carried x) = r_burst x /\
  (r_ver x <> 0 -> r_nope (carried x) = r_nope x /\ r_ci (carried x) = r_ci x).
Proof.
  unfold carried. destruct (r_ver x =? 0) eqn:E; [apply Z.eqb_eq in E; rewrite E; repeat split; contradiction|].
  destruct (r_nope x) eqn:En; repeat split; exact En.
Qed.
Lemma carried_eq m' m : carried m' = carried m ->
  r_ver m' = r_ver m /\ r_fn m' = r_fn m /\ r_tn m' = r_tn m /\ r_rssi m' = r_rssi m /\ r_toa m' = r_toa m /\ r_burst m' = r_burst m /\
  (r_ver m <> 0 -> r_nope m' = r_nope m /\ r_ci m' = r_ci m).
Proof.
  intros H. destruct (carried_fields m') as (A1 & A2 & A3 & A4 & A5 & A6 & A7). destruct (carried_fields m) as (B1 & B2 & B3 & B4 & B5 & B6 & B7).
  rewrite H in A1, A2, A3, A4, A5, A6, A7. repeat (split; [congruence|]). intros Hv.
  assert (Hv' : r_ver m' <> 0) by congruence. destruct (A7 Hv'). destruct (B7 Hv). split; congruence.
Qed.

Theorem rx_roundtrip m legacy b :
  soft_ok m -> gen_rx legacy m = Ok b -> exists m', parse_rx b = Ok m' /\ carried m' = carried m.
Proof.
  intros Hsoft Hgen. pose proof (gen_rx_spec _ _ _ Hgen) as Hs.
  assert (Hbytes : match r_burst m with Some bs => Forall (fun s => -128 <= s <= 127) bs | None => True end).
  { unfold soft_ok in Hsoft. destruct (r_burst m); [|exact I]. revert Hsoft. apply Forall_impl. lia. }
  pose proof (gen_rx_layout _ _ _ Hgen Hbytes) as L. clear Hgen.
  destruct m as [v fn tn rs to np mt ts tc ci bu]. unfold soft_ok, spec_rx, spec_common, spec_rx_burst, spec_mts in *.
  cbn [r_ver r_fn r_tn r_rssi r_toa r_nope r_mod r_tset r_tsc r_ci r_burst] in *.
  destruct Hs as [[Hver [[f [-> Hf]] [t [-> Ht]]]] [[r [-> Hr]] [[a [-> Ha]] [Hmts [Hci Hb]]]]].
  destruct L as (? & ? & ? & ? & [= <-] & [= <-] & [= <-] & [= <-] & ->).
  destruct Hver as [-> | ->].
  - destruct Hb as [Hb _]. destruct (Hb eq_refl) as [bs [-> Hl]].
    change (0 =? 1) with false. change (0 =? 0) with true. rewrite andb_true_r. cbv iota. cbn [app].
    set (pad := if legacy then [0; 0] else []).
    assert (Hpl : length pad = 0%nat \/ length pad = 2%nat) by (subst pad; destruct legacy; cbn; auto).
    rewrite parse_rx_layout_v0 by lia. cbv zeta. rewrite app_length, usbits_length.
    rewrite (proj2 (Nat.eqb_neq _ 0)) by lia. destruct (pick_by_bl_v0 _ _ Hl Hpl) as [i [-> Hmb]].
    rewrite Hmb, Nat2Z.id. rewrite firstn_app_len by (symmetry; apply usbits_length).
    rewrite <- map_s2us, us_rt by assumption. eexists. split; reflexivity.
  - destruct (Hci eq_refl) as [c [-> Hc]]. destruct Hb as [_ Hb]. specialize (Hb eq_refl).
    change (1 =? 1) with true. change (1 =? 0) with false. rewrite andb_false_r. cbv iota. rewrite app_nil_r, <- app_assoc.
    rewrite parse_rx_layout_v1 by (cbn [oz]; lia). cbn [oz]. unfold gen_mts. cbn [r_nope r_tsc r_mod r_tset].
    destruct np.
    + subst bu. change (parse_mts nope_ind) with (true, @None nat, @None Z, @None Z). eexists. split; reflexivity.
    + destruct Hb as [bs [i [-> [-> Hlen]]]].
      destruct (Hmts eq_refl eq_refl) as (? & s & tc' & [= <-] & Hi & -> & -> & Htc & Hs).
      pose proof (spec_tset_ok i s Hs) as Hts.
      fold (mts_val i s tc'). destruct (mts_rt i s tc' Hi (proj1 Hts) (proj2 Hts) ltac:(lia)) as [-> _].
      rewrite usbits_length, (proj2 (Nat.eqb_neq _ 0)) by (pose proof (spec_mod_bl_pos i Hi); lia).
      rewrite <- map_s2us, us_rt by assumption. eexists. split; reflexivity.
Qed.

Example rx_valid_example :
  exists b, gen_rx false {| r_ver := 1; r_fn := Some 2715647; r_tn := Some 7; r_rssi := Some (-120); r_toa := Some (-32768);
                            r_nope := false; r_mod := Some 2%nat; r_tset := Some 1; r_tsc := Some 7; r_ci := Some (-1280);
                            r_burst := Some (repeat (-127) 148) |} = Ok b /\ length b = 159%nat.
Proof. eexists. split; [vm_compute; reflexivity|reflexivity]. Qed.
