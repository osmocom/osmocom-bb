(* Lemmas about Model/MobAllocSi4.v (C20): the callers of gsm48_decode_mobile_alloc. *)
From Coq Require Import ZArith List Bool Lia ZifyBool.
From OBB Require Import Base.Lists Base.Range Base.Bits Gen.MobAllocConst Gen.MobAllocSi4Const Model.MobAlloc Model.MobAllocSi4 Proofs.MobAllocP.
Import ListNotations.
Open Scope Z_scope.
Ltac Zify.zify_post_hook ::= Z.to_euclidean_division_equations.

Lemma rd_app_l l x k : 0 <= k < Zlength l -> rd (l ++ x) k = rd l k.
Proof. intros H. unfold rd. replace (k <? 0) with false by lia. apply nth_error_app1. rewrite Zlength_correct in H. lia. Qed.

Lemma rd_app_r l x k : 0 <= k -> rd (l ++ x) (Zlength l + k) = rd x k.
Proof. intros H. unfold rd. pose proof (Zlength_nonneg l). replace (Zlength l + k <? 0) with false by lia. replace (k <? 0) with false by lia.
  rewrite nth_error_app2 by (rewrite Zlength_correct; lia). f_equal. rewrite Zlength_correct. lia. Qed.

Lemma rd_app_r0 l x : rd (l ++ x) (Zlength l) = rd x 0.
Proof. rewrite <- (rd_app_r l x 0) by lia. f_equal. lia. Qed.

Lemma Zlength_skipn (l : list Z) n : 0 <= n -> Zlength (skipn (Z.to_nat n) l) = Z.max 0 (Zlength l - n).
Proof. intros H. rewrite !Zlength_correct, skipn_length. lia. Qed.

Lemma octets_zn d k : octets d -> 0 <= k < Zlength d -> 0 <= zn d k < 256.
Proof. intros H Hk. unfold octets in H. rewrite Forall_forall in H. apply H, zn_In, Hk. Qed.

Lemma octets_app a b : octets (a ++ b) <-> octets a /\ octets b.
Proof. unfold octets. apply Forall_app. Qed.

Lemma octets_firstn n l : octets l -> octets (firstn n l).
Proof. apply Forall_firstn. Qed.

Lemma octets_skipn n l : octets l -> octets (skipn n l).
Proof. unfold octets. rewrite !Forall_forall. intros H x Hx. apply H. eapply In_skipn, Hx. Qed.

(* the decoder reads ma[0 .. len-1] only *)
Lemma pick_ext ma ma' len fcap f j si4 : (forall k, 0 <= k < len -> rd ma k = rd ma' k) ->
  forall is s, Forall (fun i => 0 <= i < 8 * len) is -> pick ma len fcap f j si4 is s = pick ma' len fcap f j si4 is s.
Proof. intros Hx. induction is as [|i r IH]; intros s His; [reflexivity|].
  apply Forall_cons_iff in His as [Hi Hr]. cbn [pick].
  rewrite (Hx (len - 1 - Z.shiftr i 3)) by (rewrite Z.shiftr_div_pow2 by lia; change (2 ^ 3) with 8; lia).
  destruct (rd ma' (len - 1 - Z.shiftr i 3)) as [b|]; [|reflexivity].
  destruct (negb (Z.land b (Z.shiftl 1 (Z.land i 7)) =? 0)); [|apply IH, Hr].
  destruct (fcap <=? i); [reflexivity|]. destruct (j <=? i); [reflexivity|].
  destruct (rd f i) as [a|]; [|reflexivity]. destruct (wr (s_hop s) (s_hlen s) a) as [hop'|]; [|reflexivity].
  destruct si4; [|apply IH, Hr]. destruct (rd (s_freq s) a) as [m|]; [|reflexivity].
  destruct (wr (s_freq s) a (set_hopp m)) as [fr'|]; [|reflexivity]. apply IH, Hr. Qed.

Lemma decode_ext freq ma ma' len hop hl si4 : (forall k, 0 <= k < len -> rd ma k = rd ma' k) ->
  decode freq ma len hop hl si4 = decode freq ma' len hop hl si4.
Proof. intros Hx. unfold decode. rewrite shiftl3. cbv zeta. destruct (8 <? len); [reflexivity|].
  destruct (negb (si4 =? 0) && (Zlength freq <? 1024)); [reflexivity|]. destruct (len =? 0); [reflexivity|].
  destruct (Zlength freq <? 1024); [reflexivity|].
  destruct (gen_f c_F_CAPACITY (8 * len) (visit (if negb (si4 =? 0) then tabula_rasa freq else freq)) [] 0) as [[f j]|]; [|reflexivity].
  rewrite (pick_ext ma ma'); [reflexivity|exact Hx|]. apply Forall_forall. intros i Hi. apply range_in in Hi. lia. Qed.

(* shifts and masks of an octet are div / mod, fields that do not overlap add up *)
Lemma chan_desc_ok a b2 b3 rest c : 0 <= b2 < 256 -> 0 <= b3 < 256 ->
  chan_desc (100 :: a :: b2 :: b3 :: rest) 0 c = Some (cd_fields [100; a; b2; b3] c).
Proof. intros H2 H3. unfold chan_desc.
  change (rd (100 :: a :: b2 :: b3 :: rest) (0 + 1)) with (Some a).
  change (rd (100 :: a :: b2 :: b3 :: rest) (0 + 2)) with (Some b2).
  change (rd (100 :: a :: b2 :: b3 :: rest) (0 + 3)) with (Some b3). cbv iota beta zeta.
  rewrite !Z.shiftr_div_pow2 by lia.
  change 3 with (Z.ones 2). change 7 with (Z.ones 3). change 15 with (Z.ones 4). change 63 with (Z.ones 6).
  change (Z.land (b2 / 2 ^ 4) 1) with (Z.land (b2 / 2 ^ 4) (Z.ones 1)).
  rewrite !Z.land_ones by lia. rewrite !lor_shiftl by lia. unfold u8, cd_fields.
  destruct ((b2 / 16) mod 2 =? 1) eqn:E.
  - replace ((b2 / 2 ^ 4) mod 2 ^ 1 =? 0) with false by lia. cbn [negb]. f_equal. f_equal; lia.
  - replace ((b2 / 2 ^ 4) mod 2 ^ 1 =? 0) with true by lia. cbn [negb]. f_equal. f_equal; lia. Qed.
Ltac Zify.zify_post_hook ::= idtac.

(* si4_tail = channel description step, then ma_part *)
Lemma si4_tail_pre pre rest si1 s c : cd_ie pre -> octets pre -> (pre = [] -> hd 0 rest <> 100) ->
  si4_tail (pre ++ rest) si1 s c = ma_part (pre ++ rest) si1 s (cd_fields pre c) (Zlength pre) (Zlength rest).
Proof. intros [->|(a & b2 & b3 & ->)] Ho Hh.
  - cbn [app cd_fields]. unfold si4_tail. cbv zeta. rewrite Zlength_nil. destruct rest as [|t r].
    + reflexivity.
    + rewrite Zlength_cons. pose proof (Zlength_nonneg r). replace (1 <=? Z.succ (Zlength r)) with true by lia.
      change (rd (t :: r) 0) with (Some t). cbv iota. cbn [hd] in Hh. specialize (Hh eq_refl).
      replace (t =? c_IE_CBCH_CHAN_DESC) with false by (unfold c_IE_CBCH_CHAN_DESC; lia). reflexivity.
  - cbn [app]. unfold octets in Ho. apply Forall_cons_iff in Ho as [_ Ho]. apply Forall_cons_iff in Ho as [Ha Ho].
    apply Forall_cons_iff in Ho as [H2 Ho]. apply Forall_cons_iff in Ho as [H3 _].
    assert (HL : Zlength (100 :: a :: b2 :: b3 :: rest) = 4 + Zlength rest) by (rewrite !Zlength_cons; lia).
    pose proof (Zlength_nonneg rest) as Hr.
    unfold si4_tail. cbv zeta. rewrite HL. replace (1 <=? 4 + Zlength rest) with true by lia.
    change (rd (100 :: a :: b2 :: b3 :: rest) 0) with (Some 100). change (100 =? c_IE_CBCH_CHAN_DESC) with true. cbv iota.
    replace (4 + Zlength rest <? 4) with false by lia. rewrite chan_desc_ok by assumption.
    replace (4 + Zlength rest - 4) with (Zlength rest) by lia. reflexivity. Qed.

(* data = the message from pre on: data[0], data[1] are the first two octets of rest, the decoder's buffer is what follows them *)
Lemma ma_part_eq pre rest si1 s c :
  ma_part (pre ++ rest) si1 s c (Zlength pre) (Zlength rest) =
    match rest with
    | [] => SRet 0 s c (Zlength pre) 0
    | t :: r =>
        if negb (t =? 114) then SRet 0 s c (Zlength pre) (Zlength rest)
        else match r with
             | [] => SRet (-5) s c (Zlength pre) 1
             | l :: v =>
                 if Zlength v <? l then SRet (-5) s c (Zlength pre) (Zlength rest)
                 else if si1 =? 0 then SRet 0 s c (Zlength pre + (2 + l)) (Zlength v - l)
                 else match decode (s_freq s) v l (s_hop s) (s_hlen s) 1 with
                      | OOB => SOOB
                      | Ok _ s' => SRet 0 s' c (Zlength pre + (2 + l)) (Zlength v - l)
                      end
             end
    end.
Proof. unfold ma_part. destruct rest as [|t r]; [reflexivity|]. pose proof (Zlength_nonneg r) as Hr.
  rewrite Zlength_cons at 1. replace (1 <=? Z.succ (Zlength r)) with true by lia.
  rewrite rd_app_r0. change (rd (t :: r) 0) with (Some t). cbv iota. change c_IE_CBCH_MOB_AL with 114.
  destruct (t =? 114); [|reflexivity]. cbn [negb]. destruct r as [|l v]; [reflexivity|]. pose proof (Zlength_nonneg v) as Hv.
  rewrite !Zlength_cons. replace (Z.succ (Z.succ (Zlength v)) <? 2) with false by lia.
  rewrite rd_app_r by lia. change (rd (t :: l :: v) 1) with (Some l). cbv iota.
  replace (Z.succ (Z.succ (Zlength v)) <? 2 + l) with (Zlength v <? l) by lia. destruct (Zlength v <? l); [reflexivity|].
  replace (Z.succ (Z.succ (Zlength v)) - (2 + l)) with (Zlength v - l) by lia. destruct (si1 =? 0); [reflexivity|].
  replace (Z.to_nat (Zlength pre + 2)) with (length pre + 2)%nat by (rewrite Zlength_correct; lia).
  rewrite skipn_app_plus. reflexivity. Qed.

Lemma si4_complete pre l v tail si1 s c : cd_ie pre -> octets pre -> 0 <= l < 256 -> Zlength v = l ->
  si4_tail (pre ++ 114 :: l :: v ++ tail) si1 s c =
    if si1 =? 0 then SRet 0 s (cd_fields pre c) (Zlength pre + 2 + l) (Zlength tail)
    else match decode (s_freq s) v l (s_hop s) (s_hlen s) 1 with
         | OOB => SOOB
         | Ok _ s' => SRet 0 s' (cd_fields pre c) (Zlength pre + 2 + l) (Zlength tail)
         end.
Proof. intros Hp Ho Hl Hv. rewrite si4_tail_pre by (try assumption; intros _; cbn [hd]; lia). rewrite ma_part_eq.
  change (114 =? 114) with true. cbn [negb]. rewrite Zlength_app. pose proof (Zlength_nonneg tail).
  replace (Zlength v + Zlength tail <? l) with false by lia.
  replace (Zlength v + Zlength tail - l) with (Zlength tail) by lia. replace (Zlength pre + (2 + l)) with (Zlength pre + 2 + l) by lia.
  rewrite (decode_ext _ (v ++ tail) v) by (intros k Hk; apply rd_app_l; lia). reflexivity. Qed.

(* no payload makes the SI4 caller, or the decoder it calls, read or write outside the message / the tables.
   tail_ok is what every exit guarantees: the position reached lies inside the message, the tables keep their sizes, -EIO leaves the
   state untouched *)
Definition tail_ok (d : list Z) (s : st) (off : Z) (c' : cb) (r : sres) : Prop :=
  exists rc s' off' lft, r = SRet rc s' c' off' lft /\ off <= off' /\ 0 <= lft /\ off' + lft = Zlength d /\
    (rc = 0 \/ (rc = -5 /\ s' = s)) /\ Zlength (s_freq s') = 1024 /\ Zlength (s_hop s') = 64.

Lemma tail_ok_same d s off c rc off' lft : Zlength (s_freq s) = 1024 -> Zlength (s_hop s) = 64 ->
  off <= off' -> 0 <= lft -> off' + lft = Zlength d -> rc = 0 \/ rc = - c_EIO -> tail_ok d s off c (SRet rc s c off' lft).
Proof. intros Hf Hh H1 H2 H3 Hrc. exists rc, s, off', lft. repeat split; try assumption. destruct Hrc as [->| ->]; [left|right]; auto. Qed.

Lemma tail_ok_weaken d s off off0 c r : off0 <= off -> tail_ok d s off c r -> tail_ok d s off0 c r.
Proof. intros H (rc & s' & off' & lft & E & H1 & T). exists rc, s', off', lft. split; [exact E|]. split; [lia|exact T]. Qed.

Lemma ma_part_ok d si1 s c off plen : octets d -> 0 <= off -> 0 <= plen -> off + plen = Zlength d ->
  Zlength (s_freq s) = 1024 -> Zlength (s_hop s) = 64 -> tail_ok d s off c (ma_part d si1 s c off plen).
Proof. intros Ho Hoff Hpl Hsum Hf Hh. unfold ma_part. destruct (1 <=? plen) eqn:E1; [|apply tail_ok_same; auto; lia].
  rewrite rd_ok by lia. destruct (zn d off =? c_IE_CBCH_MOB_AL); [|apply tail_ok_same; auto; lia].
  destruct (plen <? 2) eqn:E2; [apply tail_ok_same; auto; lia|].
  rewrite rd_ok by lia. pose proof (octets_zn d (off + 1) Ho ltac:(lia)) as Hl. set (l := zn d (off + 1)) in *. clearbody l.
  destruct (plen <? 2 + l) eqn:E3; [apply tail_ok_same; auto; lia|].
  destruct (si1 =? 0); [apply tail_ok_same; auto; lia|].
  assert (Hma : l <= 8 -> l <= Zlength (skipn (Z.to_nat (off + 2)) d)) by (intros _; rewrite Zlength_skipn by lia; lia).
  destruct (decode_total (s_freq s) _ l (s_hop s) (s_hlen s) 1 Hf Hh ltac:(lia) Hma) as (rc & s' & -> & Hf' & Hh').
  exists 0, s', (off + (2 + l)), (plen - (2 + l)). repeat split; try assumption; lia. Qed.

Lemma si4_ok d si1 s c : octets d -> Zlength (s_freq s) = 1024 -> Zlength (s_hop s) = 64 ->
  exists c', tail_ok d s 0 c' (si4_tail d si1 s c).
Proof. intros Ho Hf Hh. pose proof (Zlength_nonneg d) as Hd. unfold si4_tail. cbv zeta.
  destruct (1 <=? Zlength d) eqn:E1; [|exists c; apply ma_part_ok; auto; lia].
  rewrite rd_ok by lia. destruct (zn d 0 =? c_IE_CBCH_CHAN_DESC); [|exists c; apply ma_part_ok; auto; lia].
  destruct (Zlength d <? 4) eqn:E4; [exists c; apply tail_ok_same; auto; lia|].
  unfold chan_desc. rewrite !rd_ok by lia. cbv zeta.
  (* the description is stored, the Mobile Allocation part starts at octet 4 *)
  destruct (negb _); eexists; apply (tail_ok_weaken _ _ 4); [lia|apply ma_part_ok; auto; lia| lia |apply ma_part_ok; auto; lia]. Qed.

(* a message that ends inside the Mobile Allocation IE, behind its tag, or inside the channel description *)
Lemma si4_cut pre l v' si1 s c : cd_ie pre -> octets pre -> 0 <= l < 256 -> Zlength v' < l ->
  si4_tail (pre ++ 114 :: l :: v') si1 s c = SRet (-5) s (cd_fields pre c) (Zlength pre) (2 + Zlength v').
Proof. intros Hp Ho Hl Hv. rewrite si4_tail_pre by (try assumption; intros _; cbn [hd]; lia). rewrite ma_part_eq.
  change (114 =? 114) with true. cbn [negb]. replace (Zlength v' <? l) with true by lia. rewrite !Zlength_cons. f_equal. lia. Qed.

Lemma si4_cut_tag pre si1 s c : cd_ie pre -> octets pre ->
  si4_tail (pre ++ [114]) si1 s c = SRet (-5) s (cd_fields pre c) (Zlength pre) 1.
Proof. intros Hp Ho. rewrite si4_tail_pre by (try assumption; intros _; cbn [hd]; lia). apply ma_part_eq. Qed.

Lemma si4_cut_cd x si1 s c : hd 0 x = 100 -> 1 <= Zlength x < 4 -> si4_tail x si1 s c = SRet (-5) s c 0 (Zlength x).
Proof. intros Hh Hl. unfold si4_tail. cbv zeta. replace (1 <=? Zlength x) with true by lia.
  destruct x as [|t r]; [rewrite Zlength_nil in Hl; lia|]. cbn [hd] in Hh. subst t.
  change (rd (100 :: r) 0) with (Some 100). change (100 =? c_IE_CBCH_CHAN_DESC) with true. cbv iota.
  replace (Zlength (100 :: r) <? 4) with true by lia. reflexivity. Qed.

Lemma si4_before_si1 pre l v tail s c : cd_ie pre -> octets pre -> 0 <= l < 256 -> Zlength v = l ->
  si4_tail (pre ++ 114 :: l :: v ++ tail) 0 s c = SRet 0 s (cd_fields pre c) (Zlength pre + 2 + l) (Zlength tail).
Proof. intros Hp Ho Hl Hv. rewrite si4_complete by assumption. reflexivity. Qed.

Lemma si4_no_ma pre rest si1 s c : cd_ie pre -> octets pre -> (pre = [] -> hd 0 rest <> 100) -> hd 0 rest <> 114 ->
  si4_tail (pre ++ rest) si1 s c = SRet 0 s (cd_fields pre c) (Zlength pre) (Zlength rest).
Proof. intros Hp Ho Hh Hm. rewrite si4_tail_pre by assumption. rewrite ma_part_eq. destruct rest as [|t r]; [reflexivity|].
  cbn [hd] in Hm. replace (t =? 114) with false by lia. reflexivity. Qed.

(* the decoder with si4 = 0, then the empty-list check: the common tail of render_ma and of both `go` calls of render_ma_cd
   (Model/MobAllocCd.v); in bounds for every content of mob_alloc_lv[9] *)
Lemma decode_checked_safe lv fr ma ma_len : Zlength lv = 9 -> octets lv -> Zlength fr = 1024 -> Zlength ma = 64 ->
  exists rc s, match decode fr (skipn 1 lv) (zn lv 0) ma ma_len 0 with
               | OOB => OOB
               | Ok _ s' => if s_hlen s' <? 1 then Ok c_CAUSE_NO_CELL_ALLOC_A s' else Ok 0 s'
               end = Ok rc s.
Proof. intros Hl Ho Hf Hm. pose proof (octets_zn lv 0 Ho ltac:(lia)) as H0.
  destruct (decode_total fr (skipn 1 lv) (zn lv 0) ma ma_len 0 Hf Hm ltac:(lia)) as (rc & s & -> & _).
  { intros H8. change 1%nat with (Z.to_nat 1). rewrite Zlength_skipn by lia. lia. }
  destruct (s_hlen s <? 1); eauto. Qed.

Lemma render_safe lv freq ma ma_len : Zlength lv = 9 -> octets lv -> Zlength freq = 1024 -> Zlength ma = 64 ->
  exists rc s, render_ma lv freq ma ma_len = Ok rc s.
Proof. intros Hl Ho Hf Hm. unfold render_ma. rewrite rd_ok by lia. destruct (zn lv 0 =? 0); [eauto|apply decode_checked_safe; assumption]. Qed.

Lemma render_exact l v freq ma ma_len : 1 <= l <= 8 -> l <= Zlength v -> Zlength freq = 1024 -> Zlength ma = 64 ->
  render_ma (l :: v) freq ma ma_len =
    Ok (if Zlength (spec_hopping freq v l) <? 1 then 101 else 0)
       (mkst freq (spec_hopping freq v l ++ skipn (length (spec_hopping freq v l)) ma) (Zlength (spec_hopping freq v l))).
Proof. intros Hl Hv Hf Hm. unfold render_ma. change (rd (l :: v) 0) with (Some l). cbv iota. replace (l =? 0) with false by lia.
  cbn [skipn]. rewrite decode_spec by lia. cbn [s_hlen]. destruct (Zlength (spec_hopping freq v l) <? 1); reflexivity. Qed.

Lemma render_long l v freq ma ma_len : 8 < l < 256 ->
  render_ma (l :: v) freq ma ma_len = Ok (if ma_len <? 1 then 101 else 0) (mkst freq ma ma_len).
Proof. intros Hl. unfold render_ma. change (rd (l :: v) 0) with (Some l). cbv iota. replace (l =? 0) with false by lia.
  rewrite decode_long by lia. cbn [s_hlen]. destruct (ma_len <? 1); reflexivity. Qed.

Definition sobs (r : sres) : list Z :=
  match r with
  | SRet rc s c off lft => [rc; off; lft; cb_chan_nr c; cb_h c; cb_tsc c; cb_maio c; cb_hsn c; cb_arfcn c; s_hlen s] ++ firstn 4 (s_hop s) ++
                           [zn (s_freq s) 0; zn (s_freq s) 10; zn (s_freq s) 30]
  | SOOB => [-998]
  end.
(* cell allocation {0, 10, 20, 30}, every mask 0x42 (+ 0x01 in the cell allocation), a previous list of 9 entries *)
Definition s0 : st := mkst (tbl [0; 10; 20; 30] 66) (repeat 7 64) 9.
(* channel description (hopping: TSC 5, MAIO 23, HSN 26) + mobile allocation 0b1011 + one rest octet: list 10 20 0, flags renewed *)
Example ex_si4_full : sobs (si4_tail [100; 33; 181; 218; 114; 1; 11; 43] 1 s0 cb0) = [0; 7; 1; 33; 1; 5; 23; 26; 60001; 3; 10; 20; 0; 7; 67; 67; 65].
Proof. unfold s0. rewrite tbl_upfrom. vm_compute. reflexivity. Qed.
(* the same message before SI1: skipped, the old list stays *)
Example ex_si4_before_si1 : sobs (si4_tail [100; 33; 181; 218; 114; 1; 11; 43] 0 s0 cb0) = [0; 7; 1; 33; 1; 5; 23; 26; 60001; 9; 7; 7; 7; 7; 67; 67; 67].
Proof. unfold s0. rewrite tbl_upfrom. vm_compute. reflexivity. Qed.
(* the IE announces two octets, the message carries one: -EIO, list and flags untouched (the channel description is already stored) *)
Example ex_si4_cut : sobs (si4_tail [100; 33; 181; 218; 114; 2; 11] 1 s0 cb0) = [-5; 4; 3; 33; 1; 5; 23; 26; 60001; 9; 7; 7; 7; 7; 67; 67; 67].
Proof. unfold s0. rewrite tbl_upfrom. vm_compute. reflexivity. Qed.
(* the message ends with the tag *)
Example ex_si4_tag_last : sobs (si4_tail [114] 1 s0 cb0) = [-5; 0; 1; 201; 202; 203; 204; 205; 60001; 9; 7; 7; 7; 7; 67; 67; 67].
Proof. unfold s0. rewrite tbl_upfrom. vm_compute. reflexivity. Qed.
(* no channel description, two bitmap octets, two rest octets *)
Example ex_si4_two : sobs (si4_tail [114; 2; 0; 5; 43; 43] 1 s0 cb0) = [0; 4; 2; 201; 202; 203; 204; 205; 60001; 2; 10; 30; 7; 7; 65; 67; 67].
Proof. unfold s0. rewrite tbl_upfrom. vm_compute. reflexivity. Qed.
(* non-hopping channel description (ARFCN 730), nothing else *)
Example ex_si4_h0 : sobs (si4_tail [100; 33; 34; 218] 1 s0 cb0) = [0; 4; 0; 33; 0; 1; 204; 205; 730; 9; 7; 7; 7; 7; 67; 67; 67].
Proof. unfold s0. rewrite tbl_upfrom. vm_compute. reflexivity. Qed.
(* nine bitmap octets: the decoder refuses, SI4 ignores the refusal, nothing changes *)
Example ex_si4_long : sobs (si4_tail [114; 9; 1; 2; 3; 4; 5; 6; 7; 8; 9; 43] 1 s0 cb0) = [0; 11; 1; 201; 202; 203; 204; 205; 60001; 9; 7; 7; 7; 7; 67; 67; 67].
Proof. unfold s0. rewrite tbl_upfrom. vm_compute. reflexivity. Qed.
Example ex_si4_hyp : cd_ie [100; 33; 181; 218] /\ octets [100; 33; 181; 218] /\ Zlength (s_freq s0) = 1024 /\ Zlength (s_hop s0) = 64.
Proof. split; [right; eauto|]. split; [repeat constructor; lia|]. split; [apply tbl_length|reflexivity]. Qed.
Example ex_render : match render_ma [1; 11; 0; 0; 0; 0; 0; 0; 0] (tbl [0; 10; 20; 30] 66) (repeat 7 64) 9 with
                    | Ok rc s => rc :: s_hlen s :: firstn 4 (s_hop s) | OOB => [-998] end = [0; 3; 10; 20; 0; 7].
Proof. rewrite tbl_upfrom. vm_compute. reflexivity. Qed.
(* a bit beyond the cell allocation only: empty list, cause 0x65 *)
Example ex_render_empty : match render_ma [1; 16; 0; 0; 0; 0; 0; 0; 0] (tbl [0; 10; 20; 30] 66) (repeat 7 64) 9 with
                    | Ok rc s => rc :: s_hlen s :: firstn 4 (s_hop s) | OOB => [-998] end = [101; 0; 7; 7; 7; 7].
Proof. rewrite tbl_upfrom. vm_compute. reflexivity. Qed.
