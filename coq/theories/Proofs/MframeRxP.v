(* Lemmas for C11, part 2: the consumers of trxcon's frame lookup in sched_trx.c - l1sched_handle_rx_burst() with the loss
   substitution subst_frame_loss(), l1sched_pull_burst(), l1sched_handle_rx_probe() (Model/Mframe.v: rx_burst, tx_pull, rx_probe).
   Everything rests on the table facts of Proofs/MframeP.v (layout_table / lookup_in_table / mask_covers, themselves finite sweeps
   over the regenerated tables) plus two small sweeps below. *)
From Coq Require Import ZArith List Bool Lia ZifyBool.
From OBB Require Import Base.Range Gen.MframeFw Gen.MframeTrxcon Model.Mframe Proofs.MframeP.
Import ListNotations.
Open Scope Z_scope.

Lemma sweep_hyper : forallb (fun l => chk_hyper l) tx_layouts = true.
Proof. vm_compute. reflexivity. Qed.

Lemma desc_facts : Z.of_nat (length tx_desc) = tx_CHAN_MAX /\ 0 < tx_CHAN_MAX.
Proof. vm_compute. split; reflexivity. Qed.

Lemma desc_row_some c : 0 <= c < tx_CHAN_MAX ->
  exists r, desc_row c = Some r /\ nth (Z.to_nat c) tx_desc (-1, -1, 0, 0) = r.
Proof.
  intros Hc. destruct desc_facts as [Hlen _]. unfold desc_row.
  replace ((0 <=? c) && (c <? tx_CHAN_MAX)) with true by lia.
  destruct (nth_error tx_desc (Z.to_nat c)) as [r|] eqn:E.
  - exists r. split; [reflexivity|]. apply nth_error_nth. exact E.
  - exfalso. apply nth_error_None in E. lia.
Qed.

Lemma chan_in_range L fr d : In L tx_layouts -> In fr (ly_frames L) -> 0 <= fr_chan d fr < tx_CHAN_MAX.
Proof.
  intros HL Hfr. destruct desc_facts as [_ Hpos].
  destruct (Z.eq_dec (fr_chan d fr) tx_L1SCHED_IDLE) as [E|N].
  - rewrite E. unfold tx_L1SCHED_IDLE. lia.
  - destruct (mask_covers L fr d HL Hfr N) as [H _]. exact H.
Qed.

Lemma lookup_ok L fn : In L tx_layouts -> ly_cfg L <> tx_GSM_PCHAN_NONE -> 0 <= fn < 4294967296 ->
  exists fr, trx_frame L fn = FrOk fr /\ trx_frame_rx L fn = FrOk fr /\ In fr (ly_frames L).
Proof.
  intros HL Hc Hfn. destruct (lookup_in_table L fn HL Hc Hfn) as [_ [_ [fr [Hn [H1 H2]]]]].
  exists fr. split; [exact H1|]. split; [exact H2|]. apply (nth_error_In _ _ Hn).
Qed.

Lemma handler_of_row c a b rx tx : desc_row c = Some (a, b, rx, tx) -> 0 <= c < tx_CHAN_MAX ->
  desc_has_handler DL c = negb (rx =? 0) /\ desc_has_handler UL c = negb (tx =? 0).
Proof.
  intros E Hc. destruct (desc_row_some c Hc) as [r [E2 Hn]]. rewrite E in E2. injection E2 as <-.
  unfold desc_has_handler. rewrite Hn. split; reflexivity.
Qed.

Lemma fn_inc_range f : 0 <= fn_inc f < 2715648.
Proof. unfold fn_inc. apply Z.mod_pos_bound. lia. Qed.

Lemma fn_inc_valid f : 0 <= f < 2715648 -> fn_inc f = (f + 1) mod 2715648.
Proof. intros H. unfold fn_inc, u32. rewrite (Z.mod_small (f + 1) 4294967296) by lia. reflexivity. Qed.

Lemma fn_walk_range n : forall f x, In x (fn_walk n f) -> 0 <= x < 2715648.
Proof.
  induction n as [|n IH]; intros f x H; cbn [fn_walk] in H; [contradiction|].
  destruct H as [<-|H]; [apply fn_inc_range | exact (IH _ _ H)].
Qed.

Lemma fn_walk_length n : forall f, length (fn_walk n f) = n.
Proof. induction n as [|n IH]; intros f; cbn [fn_walk length]; [reflexivity | rewrite IH; reflexivity]. Qed.

Lemma fn_walk_nth n : forall f k, 0 <= f < 2715648 -> (k < n)%nat ->
  nth k (fn_walk n f) 0 = (f + 1 + Z.of_nat k) mod 2715648.
Proof.
  induction n as [|n IH]; intros f k Hf Hk; [lia|].
  cbn [fn_walk]. destruct k as [|k]; cbn [nth].
  - rewrite (fn_inc_valid f Hf). f_equal. lia.
  - rewrite (IH (fn_inc f) k (fn_inc_range f) ltac:(lia)). rewrite (fn_inc_valid f Hf).
    rewrite <- Zplus_assoc, Zplus_mod_idemp_l. f_equal. lia.
Qed.

Lemma rx_elapsed_valid fn lp : 0 <= fn < 2715648 -> 0 <= lp < 2715648 ->
  rx_elapsed fn lp = let e := (fn - lp) mod 2715648 in if e <? 1357824 then e else e - 2715648.
Proof.
  intros Hfn Hlp. unfold rx_elapsed. rewrite s32_small by lia. cbv zeta.
  destruct (fn - lp >=? 1357824) eqn:E1; destruct (fn - lp <? -1357824) eqn:E2; destruct ((fn - lp) mod 2715648 <? 1357824) eqn:E3;
    Z.div_mod_to_equations; lia.
Qed.

Lemma hyper_rows L x : In L tx_layouts -> ly_cfg L <> tx_GSM_PCHAN_NONE ->
  2715648 mod ly_period L = 0 /\ (x mod 2715648) mod ly_period L = x mod ly_period L.
Proof.
  intros HL Hc. destruct (layout_table L HL Hc) as [Hp _].
  pose proof (forallb_In _ _ sweep_hyper L HL) as H. unfold chk_hyper, has_frames_cfg in H.
  split; [lia | apply mod_mod_divide; lia].
Qed.

Lemma subst_loop_ok L c : In L tx_layouts -> ly_cfg L <> tx_GSM_PCHAN_NONE ->
  forall n f, exists cs, subst_loop L c n f = Some cs.
Proof.
  intros HL Hc. induction n as [|n IH]; intros f; cbn [subst_loop]; [eexists; reflexivity|].
  pose proof (fn_inc_range f) as Hr.
  destruct (lookup_ok L (fn_inc f) HL Hc ltac:(lia)) as [fr [E _]]. rewrite E.
  destruct (IH (fn_inc f)) as [cs Ecs]. rewrite Ecs. eexists; reflexivity.
Qed.

(* (the statements of Props/C11.v spell this list out) *)
Definition subst_calls (L : layout) (c : Z) (n : nat) (f : Z) : list rxcall :=
  map (fun f' => (c, f', dl_bid_at L f')) (filter (fun f' => trx_owns L DL c f') (fn_walk n f)).

Lemma subst_loop_spec L c : forall n f cs, subst_loop L c n f = Some cs -> cs = subst_calls L c n f.
Proof.
  unfold subst_calls.
  induction n as [|n IH]; intros f cs H; cbn [subst_loop] in H; cbn [fn_walk filter map].
  - injection H as <-. reflexivity.
  - destruct (trx_frame L (fn_inc f)) as [| |fr] eqn:E; try discriminate.
    destruct (subst_loop L c n (fn_inc f)) as [r|] eqn:E2; try discriminate.
    injection H as <-.
    assert (Ho : trx_owns L DL c (fn_inc f) = (fr_chan DL fr =? c)) by (unfold trx_owns; rewrite E; reflexivity).
    assert (Hb : dl_bid_at L (fn_inc f) = fr_bid DL fr) by (unfold dl_bid_at; rewrite E; reflexivity).
    rewrite Ho, (IH _ _ E2).
    destruct (fr_chan DL fr =? c); [cbn [map]; rewrite Hb; reflexivity | reflexivity].
Qed.

Lemma subst_calls_owned L c n f0 : forall c' f b, In (c', f, b) (subst_calls L c n f0) ->
  c' = c /\ 0 <= f < 2715648 /\ In f (fn_walk n f0) /\
  exists fr, trx_frame L f = FrOk fr /\ fr_chan DL fr = c /\ fr_bid DL fr = b.
Proof.
  intros c' f b H. unfold subst_calls in H. apply in_map_iff in H as [f' [E Hin]].
  injection E as <- <- <-. apply filter_In in Hin as [Hw Ho].
  split; [reflexivity|]. split; [exact (fn_walk_range _ _ _ Hw)|]. split; [exact Hw|].
  unfold trx_owns in Ho. unfold dl_bid_at. destruct (trx_frame L f') as [| |fr]; try discriminate.
  exists fr. apply Z.eqb_eq in Ho. auto.
Qed.

(* l1sched_handle_rx_burst() as it runs when no lookup leaves a table *)
Definition rx_spec (L : layout) (s : tsst) (fn : Z) (fr : Z*Z*Z*Z) : rxres :=
  let c := fr_chan DL fr in
  let bid := fr_bid DL fr in
  if negb (desc_has_handler DL c) then RxOk (-19) bid [] None s
  else
    match find_st c s with
    | None => RxOk (-19) bid [] None s
    | Some st =>
        if negb (cs_active st) then RxOk 0 bid [] None s
        else if cs_nproc st =? 0 then RxOk 0 bid [] (Some (c, fn, bid)) (set_st c (st_after_direct st fn) s)
        else
          let e := rx_elapsed fn (cs_last st) in
          if e <? 0 then RxOk (-114) bid [] None s
          else if (e >? ly_period L) || (e =? 0) then RxOk 0 bid [] (Some (c, fn, bid)) (set_st c (st_after_direct st fn) s)
          else
            let sub := subst_calls L c (Z.to_nat (e - 1)) (cs_last st) in
            RxOk 0 bid sub (Some (c, fn, bid)) (set_st c (st_after_direct (st_after_subst st sub) fn) s)
    end.

Lemma rx_burst_at L s fn fr : In L tx_layouts -> ly_cfg L <> tx_GSM_PCHAN_NONE -> 0 <= fn < 4294967296 ->
  trx_frame L fn = FrOk fr -> rx_burst L s fn = rx_spec L s fn fr.
Proof.
  intros HL Hc Hfn Hfr. destruct (lookup_ok L fn HL Hc Hfn) as [fr' [E1 [E2 Hin]]].
  rewrite Hfr in E1. injection E1 as <-.
  unfold rx_burst, rx_spec. rewrite E2. cbv zeta.
  pose proof (chan_in_range L fr DL HL Hin) as Hr.
  destruct (desc_row_some _ Hr) as [[[[a b] rx] tx] [ED _]]. rewrite ED.
  destruct (handler_of_row _ _ _ _ _ ED Hr) as [HH _]. rewrite HH. rewrite negb_involutive.
  destruct (rx =? 0); [reflexivity|].
  destruct (find_st (fr_chan DL fr) s) as [st|]; [|reflexivity].
  destruct (negb (cs_active st)); [reflexivity|].
  unfold subst_frame_loss. destruct (cs_nproc st =? 0); [reflexivity|]. cbv zeta.
  destruct (rx_elapsed fn (cs_last st) <? 0); [reflexivity|].
  destruct (rx_elapsed fn (cs_last st) >? ly_period L); [reflexivity|]. rewrite orb_false_l.
  destruct (rx_elapsed fn (cs_last st) =? 0); [reflexivity|].
  destruct (subst_loop_ok L (fr_chan DL fr) HL Hc (Z.to_nat (rx_elapsed fn (cs_last st) - 1)) (cs_last st)) as [cs Ecs].
  rewrite Ecs. rewrite (subst_loop_spec _ _ _ _ _ Ecs). reflexivity.
Qed.

Lemma rx_spec_shape L s fn fr : exists rc sub dir s', rx_spec L s fn fr = RxOk rc (fr_bid DL fr) sub dir s' /\
  (dir = None \/ dir = Some (fr_chan DL fr, fn, fr_bid DL fr)) /\
  (sub = [] \/ exists n f0, sub = subst_calls L (fr_chan DL fr) n f0).
Proof.
  unfold rx_spec. cbv zeta.
  destruct (negb (desc_has_handler DL (fr_chan DL fr))); [eauto 10|].
  destruct (find_st (fr_chan DL fr) s) as [st|]; [|eauto 10].
  destruct (negb (cs_active st)); [eauto 10|].
  destruct (cs_nproc st =? 0); [eauto 10|].
  destruct (rx_elapsed fn (cs_last st) <? 0); [eauto 10|].
  destruct ((rx_elapsed fn (cs_last st) >? ly_period L) || (rx_elapsed fn (cs_last st) =? 0)); eauto 12.
Qed.

Lemma rx_in_table : forall L s fn, In L tx_layouts -> ly_cfg L <> tx_GSM_PCHAN_NONE -> 0 <= fn < 4294967296 ->
  exists rc bid sub dir s', rx_burst L s fn = RxOk rc bid sub dir s'.
Proof.
  intros L s fn HL Hc Hfn. destruct (lookup_ok L fn HL Hc Hfn) as [fr [E _]].
  rewrite (rx_burst_at L s fn fr HL Hc Hfn E). destruct (rx_spec_shape L s fn fr) as [rc [sub [dir [s' [H _]]]]].
  rewrite H. do 5 eexists; reflexivity.
Qed.

Lemma rx_calls_owned : forall L s fn rc bid sub dir s',
  In L tx_layouts -> ly_cfg L <> tx_GSM_PCHAN_NONE -> 0 <= fn < 4294967296 ->
  rx_burst L s fn = RxOk rc bid sub dir s' ->
  exists fr0, trx_frame L fn = FrOk fr0 /\ bid = fr_bid DL fr0 /\
    (dir = None \/ dir = Some (fr_chan DL fr0, fn, fr_bid DL fr0)) /\
    forall c f b, In (c, f, b) (rx_calls sub dir) ->
      c = fr_chan DL fr0 /\ 0 <= f < 4294967296 /\
      exists fr, trx_frame L f = FrOk fr /\ fr_chan DL fr = c /\ fr_bid DL fr = b.
Proof.
  intros L s fn rc bid sub dir s' HL Hc Hfn H.
  destruct (lookup_ok L fn HL Hc Hfn) as [fr [E1 _]]. rewrite (rx_burst_at L s fn fr HL Hc Hfn E1) in H.
  destruct (rx_spec_shape L s fn fr) as [rc0 [sub0 [dir0 [s0 [H0 [Hdir Hsub]]]]]].
  rewrite H0 in H. injection H as <- <- <- <- <-.
  exists fr. split; [exact E1|]. split; [reflexivity|]. split; [exact Hdir|].
  intros c f b Hin. apply in_app_or in Hin as [Hin|Hin].
  - destruct Hsub as [-> | [n [f0 ->]]]; [contradiction|].
    destruct (subst_calls_owned _ _ _ _ _ _ _ Hin) as [-> [Hf [_ Hfr]]]. split; [reflexivity|]. split; [lia | exact Hfr].
  - destruct Hdir as [-> | ->]; [contradiction|]. destruct Hin as [Hin|[]]. injection Hin as <- <- <-.
    split; [reflexivity|]. split; [exact Hfn|]. exists fr. auto.
Qed.

Lemma rx_no_call : forall L s fn fr,
  In L tx_layouts -> ly_cfg L <> tx_GSM_PCHAN_NONE -> 0 <= fn < 4294967296 -> trx_frame L fn = FrOk fr ->
  desc_has_handler DL (fr_chan DL fr) = false \/ st_active s (fr_chan DL fr) = false ->
  exists rc, rx_burst L s fn = RxOk rc (fr_bid DL fr) [] None s /\ (rc = 0 \/ rc = -19).
Proof.
  intros L s fn fr HL Hc Hfn Hfr Hno.
  rewrite (rx_burst_at L s fn fr HL Hc Hfn Hfr).
  unfold rx_spec. cbv zeta. unfold st_active in Hno.
  destruct (desc_has_handler DL (fr_chan DL fr)); cbn [negb]; [|eexists; split; [reflexivity | right; reflexivity]].
  destruct Hno as [Hno|Hno]; [discriminate|].
  destruct (find_st (fr_chan DL fr) s) as [st|]; [|eexists; split; [reflexivity | right; reflexivity]].
  rewrite Hno. cbn [negb]. eexists; split; [reflexivity | left; reflexivity].
Qed.

Lemma rx_dropped : forall L s fn fr st,
  In L tx_layouts -> ly_cfg L <> tx_GSM_PCHAN_NONE -> 0 <= fn < 4294967296 -> trx_frame L fn = FrOk fr ->
  desc_has_handler DL (fr_chan DL fr) = true -> find_st (fr_chan DL fr) s = Some st -> cs_active st = true ->
  cs_nproc st <> 0 -> rx_elapsed fn (cs_last st) < 0 ->
  rx_burst L s fn = RxOk (-114) (fr_bid DL fr) [] None s.
Proof.
  intros L s fn fr st HL Hc Hfn Hfr Hh Hst Ha Hn He.
  rewrite (rx_burst_at L s fn fr HL Hc Hfn Hfr).
  unfold rx_spec. cbv zeta. rewrite Hh, Hst, Ha. cbn [negb].
  replace (cs_nproc st =? 0) with false by lia. replace (rx_elapsed fn (cs_last st) <? 0) with true by lia. reflexivity.
Qed.

Lemma rx_direct_only : forall L s fn fr st,
  In L tx_layouts -> ly_cfg L <> tx_GSM_PCHAN_NONE -> 0 <= fn < 4294967296 -> trx_frame L fn = FrOk fr ->
  desc_has_handler DL (fr_chan DL fr) = true -> find_st (fr_chan DL fr) s = Some st -> cs_active st = true ->
  cs_nproc st = 0 \/ rx_elapsed fn (cs_last st) = 0 \/ rx_elapsed fn (cs_last st) > ly_period L ->
  rx_burst L s fn = RxOk 0 (fr_bid DL fr) [] (Some (fr_chan DL fr, fn, fr_bid DL fr))
                         (set_st (fr_chan DL fr) (st_after_direct st fn) s).
Proof.
  intros L s fn fr st HL Hc Hfn Hfr Hh Hst Ha Hcase.
  rewrite (rx_burst_at L s fn fr HL Hc Hfn Hfr).
  destruct (layout_table L HL Hc) as [Hp _].
  unfold rx_spec. cbv zeta. rewrite Hh, Hst, Ha. cbn [negb].
  destruct (cs_nproc st =? 0) eqn:En; [reflexivity|]. apply Z.eqb_neq in En.
  destruct Hcase as [H0|Hcase]; [contradiction|].
  replace (rx_elapsed fn (cs_last st) <? 0) with false by lia.
  replace ((rx_elapsed fn (cs_last st) >? ly_period L) || (rx_elapsed fn (cs_last st) =? 0)) with true by lia. reflexivity.
Qed.

Lemma rx_substitutes : forall L s fn fr st,
  In L tx_layouts -> ly_cfg L <> tx_GSM_PCHAN_NONE -> 0 <= fn < 4294967296 -> trx_frame L fn = FrOk fr ->
  desc_has_handler DL (fr_chan DL fr) = true -> find_st (fr_chan DL fr) s = Some st -> cs_active st = true ->
  cs_nproc st <> 0 -> 0 < rx_elapsed fn (cs_last st) <= ly_period L ->
  let c := fr_chan DL fr in
  let sub := map (fun f => (c, f, dl_bid_at L f))
                 (filter (fun f => trx_owns L DL c f) (fn_walk (Z.to_nat (rx_elapsed fn (cs_last st) - 1)) (cs_last st))) in
  rx_burst L s fn = RxOk 0 (fr_bid DL fr) sub (Some (c, fn, fr_bid DL fr))
                         (set_st c (st_after_direct (st_after_subst st sub) fn) s).
Proof.
  intros L s fn fr st HL Hc Hfn Hfr Hh Hst Ha Hn He c sub. subst sub c.
  rewrite (rx_burst_at L s fn fr HL Hc Hfn Hfr).
  unfold rx_spec, subst_calls. cbv zeta. rewrite Hh, Hst, Ha. cbn [negb].
  replace (cs_nproc st =? 0) with false by lia. replace (rx_elapsed fn (cs_last st) <? 0) with false by lia.
  replace ((rx_elapsed fn (cs_last st) >? ly_period L) || (rx_elapsed fn (cs_last st) =? 0)) with false by lia. reflexivity.
Qed.

Lemma tx_pull_spec : forall L s fn, In L tx_layouts -> ly_cfg L <> tx_GSM_PCHAN_NONE -> 0 <= fn < 4294967296 ->
  exists fr, trx_frame L fn = FrOk fr /\
    tx_pull L s fn = TxOk (fr_bid UL fr)
                          (if desc_has_handler UL (fr_chan UL fr) && st_active s (fr_chan UL fr) then [fr_chan UL fr] else []).
Proof.
  intros L s fn HL Hc Hfn. destruct (lookup_ok L fn HL Hc Hfn) as [fr [E1 [_ Hin]]].
  exists fr. split; [exact E1|]. unfold tx_pull. rewrite E1. cbv zeta.
  pose proof (chan_in_range L fr UL HL Hin) as Hr.
  destruct (desc_row_some _ Hr) as [[[[a b] rx] tx] [ED _]]. rewrite ED.
  destruct (handler_of_row _ _ _ _ _ ED Hr) as [_ HH]. rewrite HH. reflexivity.
Qed.

Lemma rx_probe_spec : forall L s fn fl, In L tx_layouts -> ly_cfg L <> tx_GSM_PCHAN_NONE -> 0 <= fn < 4294967296 ->
  exists fr, trx_frame L fn = FrOk fr /\
    rx_probe L s fn fl =
      match (if desc_has_handler DL (fr_chan DL fr) then find_st (fr_chan DL fr) s else None) with
      | Some st => PrOk 0 (if cs_active st then Z.lor fl 1 else fl)
      | None => PrOk (-19) fl
      end.
Proof.
  intros L s fn fl HL Hc Hfn. destruct (lookup_ok L fn HL Hc Hfn) as [fr [E1 [_ Hin]]].
  exists fr. split; [exact E1|]. unfold rx_probe. rewrite E1. cbv zeta.
  pose proof (chan_in_range L fr DL HL Hin) as Hr.
  destruct (desc_row_some _ Hr) as [[[[a b] rx] tx] [ED _]]. rewrite ED.
  destruct (handler_of_row _ _ _ _ _ ED Hr) as [HH _]. rewrite HH.
  destruct (rx =? 0); cbn [negb]; [reflexivity|].
  destruct (find_st (fr_chan DL fr) s); reflexivity.
Qed.

(* both depend on the frame number through fn mod period only (what lets the correspondence run over one period per layout) *)
Lemma tx_probe_periodic : forall L s fl x y, 0 < ly_period L -> 0 <= x < 4294967296 -> 0 <= y < 4294967296 ->
  x mod ly_period L = y mod ly_period L -> tx_pull L s x = tx_pull L s y /\ rx_probe L s x fl = rx_probe L s y fl.
Proof.
  intros L s fl x y Hp Hx Hy Hxy.
  assert (E : trx_frame L x = trx_frame L y).
  { apply (trx_frame_cycle L (ly_period L) Hp Hp (Z_mod_same_full _) x y Hx Hy Hxy). }
  unfold tx_pull, rx_probe. rewrite E. split; reflexivity.
Qed.

(* non-vacuity: CCCH on the non-combined layout (51 frames), last processed
   frame 2715643 (row 46), next burst in frame 7 of the next hyperframe: 12 frames elapsed, the walk crosses the period boundary and the
   hyperframe wrap; the channel owns 2715644..2715646 (rows 47..49) and 6 (row 6) of the 11 frames in between *)
Example ex_ccch_loss_across_wrap :
  match nth_error tx_layouts 1 with
  | Some L =>
      ly_cfg L = tx_GSM_PCHAN_CCCH /\ rx_elapsed 7 2715643 = 12 /\
      rx_burst L [(tx_L1SCHED_CCCH, mkst true 1 0 2715643)] 7 =
        RxOk 0 1 [(5, 2715644, 1); (5, 2715645, 2); (5, 2715646, 3); (5, 6, 0)] (Some (5, 7, 1)) [(5, mkst true 6 4 7)] /\
      tx_pull L [(tx_L1SCHED_RACH, mkst true 0 0 0)] 2715647 = TxOk 0 [4] /\
      rx_probe L [(tx_L1SCHED_CCCH, mkst true 0 0 0)] 2715646 0 = PrOk 0 1 /\ rx_probe L [] 2715646 0 = PrOk (-19) 0
  | None => False
  end.
Proof. vm_compute. repeat split; reflexivity. Qed.

Lemma fn_walk_between n f : 0 <= f < 2715648 ->
  fn_walk n f = map (fun k => (f + k) mod 2715648) (range 1 (1 + Z.of_nat n)).
Proof.
  intros Hf. apply (nth_ext _ _ 0 0).
  - rewrite fn_walk_length, map_length, range_length. lia.
  - intros k Hk. rewrite fn_walk_length in Hk. rewrite (fn_walk_nth n f k Hf Hk).
    pose proof (map_nth (fun k => (f + k) mod 2715648) (range 1 (1 + Z.of_nat n)) 0 k) as M. cbv beta in M.
    rewrite (nth_indep _ 0 ((f + 0) mod 2715648)) by (rewrite map_length, range_length; lia).
    rewrite M. rewrite range_nth by lia. f_equal. lia.
Qed.

Lemma rx_substitutes_between : forall L s fn fr st,
  In L tx_layouts -> ly_cfg L <> tx_GSM_PCHAN_NONE -> 0 <= fn < 2715648 -> trx_frame L fn = FrOk fr ->
  desc_has_handler DL (fr_chan DL fr) = true -> find_st (fr_chan DL fr) s = Some st -> cs_active st = true ->
  cs_nproc st <> 0 -> 0 <= cs_last st < 2715648 ->
  let d := (fn - cs_last st) mod 2715648 in
  0 < d <= ly_period L ->
  let c := fr_chan DL fr in
  let sub := map (fun f => (c, f, dl_bid_at L f))
                 (filter (fun f => trx_owns L DL c f) (map (fun k => (cs_last st + k) mod 2715648) (range 1 d))) in
  rx_burst L s fn = RxOk 0 (fr_bid DL fr) sub (Some (c, fn, fr_bid DL fr))
                         (set_st c (st_after_direct (st_after_subst st sub) fn) s).
Proof.
  intros L s fn fr st HL Hc Hfn Hfr Hh Hst Ha Hn Hl d Hd c sub. subst sub c.
  destruct (layout_table L HL Hc) as [_ [_ [H8 _]]].
  assert (He : rx_elapsed fn (cs_last st) = d).
  { rewrite (rx_elapsed_valid fn (cs_last st) Hfn Hl). cbv zeta. fold d.
    replace (d <? 1357824) with true by lia. reflexivity. }
  pose proof (rx_substitutes L s fn fr st HL Hc ltac:(lia) Hfr Hh Hst Ha Hn ltac:(rewrite He; exact Hd)) as H.
  cbv zeta in H. rewrite He in H. rewrite (fn_walk_between _ _ Hl) in H.
  replace (1 + Z.of_nat (Z.to_nat (d - 1))) with d in H by lia. exact H.
Qed.
