(* C16: integer leaves of the codec - int.to_bytes / int.from_bytes for any width, byte order and sign. *)
From Coq Require Import ZArith List Bool Lia.
From OBB Require Import Model.Codec.
Import ListNotations.
Open Scope Z_scope.

Definition bytes_ok (l:list Z) : Prop := Forall (fun b => 0 <= b < 256) l.

Lemma pow256_pos n : 0 < 256 ^ Z.of_nat n.
Proof. apply Z.pow_pos_nonneg; lia. Qed.

Lemma to_be_length n : forall x, length (to_be n x) = n.
Proof. induction n as [|n IH]; intros x; cbn [to_be]; [reflexivity|]. rewrite app_length, IH. cbn. lia. Qed.

Lemma to_be_bytes_ok n : forall x, bytes_ok (to_be n x).
Proof.
  induction n as [|n IH]; intros x; cbn [to_be]; [constructor|].
  apply Forall_app. split; [apply IH|]. constructor; [|constructor]. apply Z.mod_pos_bound. lia.
Qed.

Lemma from_be_app l b : from_be (l ++ [b]) = from_be l * 256 + b.
Proof. unfold from_be. rewrite fold_left_app. reflexivity. Qed.

Lemma from_to_be n : forall x, 0 <= x < 256 ^ Z.of_nat n -> from_be (to_be n x) = x.
Proof. induction n as [|n IH]; intros x Hx.
  - cbn in *. unfold from_be. cbn. lia.
  - cbn [to_be]. rewrite from_be_app. rewrite IH.
    + pose proof (Z.div_mod x 256). lia.
    + rewrite Nat2Z.inj_succ, Z.pow_succ_r in Hx by lia. split; [apply Z.div_pos; lia|]. apply Z.div_lt_upper_bound; lia. Qed.

Lemma from_be_range l : bytes_ok l -> 0 <= from_be l < 256 ^ Z.of_nat (length l).
Proof.
  induction l as [|b l IH] using rev_ind; intros Hb.
  - cbn. unfold from_be. cbn. lia.
  - apply Forall_app in Hb as [Hl Hb1]. inversion Hb1 as [|? ? Hb0 _]; subst.
    rewrite from_be_app, app_length. cbn [length]. rewrite Nat.add_1_r, Nat2Z.inj_succ, Z.pow_succ_r by lia.
    specialize (IH Hl). nia.
Qed.

Lemma to_from_be l : bytes_ok l -> to_be (length l) (from_be l) = l.
Proof.
  induction l as [|b l IH] using rev_ind; intros Hb; [reflexivity|].
  apply Forall_app in Hb as [Hl Hb1]. inversion Hb1 as [|? ? Hb0 _]; subst.
  rewrite from_be_app, app_length. cbn [length]. rewrite Nat.add_1_r. cbn [to_be].
  replace ((from_be l * 256 + b) / 256) with (from_be l) by (apply Z.div_unique with b; lia).
  replace ((from_be l * 256 + b) mod 256) with b by (apply Z.mod_unique with (from_be l); lia).
  rewrite IH by exact Hl. reflexivity.
Qed.

Lemma rev_if_involutive {A} (le:bool) (l:list A) : (if le then rev (if le then rev l else l) else (if le then rev l else l)) = l.
Proof. destruct le; [apply rev_involutive|reflexivity]. Qed.

Lemma rev_if_length {A} (le:bool) (l:list A) : length (if le then rev l else l) = length l.
Proof. destruct le; [apply rev_length|reflexivity]. Qed.

Lemma pow256_even n : (1 <= n)%nat -> 256 ^ Z.of_nat n = 2 * (256 ^ Z.of_nat n / 2).
Proof.
  intros Hn. destruct n as [|n']; [lia|]. rewrite Nat2Z.inj_succ, Z.pow_succ_r by lia.
  replace (256 * 256 ^ Z.of_nat n') with ((128 * 256 ^ Z.of_nat n') * 2) by lia. rewrite Z.div_mul by lia. lia.
Qed.

(* representable range of an n-octet integer *)
Definition int_range (n:nat) (sg:bool) (x:Z) : Prop :=
  if sg then - (256 ^ Z.of_nat n / 2) <= x < 256 ^ Z.of_nat n / 2 else 0 <= x < 256 ^ Z.of_nat n.

Lemma enc_int_spec n le sg x : (1 <= n)%nat ->
  (int_range n sg x /\ enc_int n le sg x = Ok (let b := to_be n (x mod 256 ^ Z.of_nat n) in if le then rev b else b)) \/
  (~ int_range n sg x /\ enc_int n le sg x = Crash 2).
Proof.
  intros Hn. unfold enc_int, int_range. destruct n as [|n']; [lia|]. cbv zeta. set (m := 256 ^ Z.of_nat (S n')).
  destruct sg.
  - destruct (Z.leb_spec (- (m / 2)) x), (Z.ltb_spec x (m / 2)); [left|right|right|right]; (split; [lia|reflexivity]).
  - destruct (Z.leb_spec 0 x), (Z.ltb_spec x m); [left|right|right|right]; (split; [lia|reflexivity]).
Qed.

Lemma enc_int_ok n le sg x : (1 <= n)%nat -> int_range n sg x ->
  enc_int n le sg x = Ok (let b := to_be n (x mod 256 ^ Z.of_nat n) in if le then rev b else b).
Proof. intros Hn Hr. destruct (enc_int_spec n le sg x Hn) as [[_ H]|[H _]]; [exact H|contradiction]. Qed.

Lemma enc_uint_be n x : (1 <= n)%nat -> 0 <= x < 256 ^ Z.of_nat n -> enc_int n false false x = Ok (to_be n x).
Proof. intros Hn Hx. rewrite (enc_int_ok n false false x Hn Hx). cbv zeta. rewrite Z.mod_small by exact Hx. reflexivity. Qed.

(* unencodable integers: exactly outside the range, OverflowError *)
Lemma enc_int_overflow n le sg x : (1 <= n)%nat -> ~ int_range n sg x -> enc_int n le sg x = Crash 2.
Proof. intros Hn Hr. destruct (enc_int_spec n le sg x Hn) as [[H _]|[_ H]]; [contradiction|exact H]. Qed.

Lemma enc_int_cases n le sg x : (exists b, enc_int n le sg x = Ok b) \/ enc_int n le sg x = Crash 2.
Proof. unfold enc_int. destruct (match n with O => _ | _ => _ end); [left; eexists; reflexivity|right; reflexivity]. Qed.

Lemma enc_int_inv n le sg x b : (1 <= n)%nat -> enc_int n le sg x = Ok b -> int_range n sg x.
Proof. intros Hn H. destruct (enc_int_spec n le sg x Hn) as [[Hr _]|[_ Hc]]; [exact Hr|congruence]. Qed.

Lemma dec_int_nonempty le sg l : (1 <= length l)%nat ->
  dec_int le sg l = (let u := from_be (if le then rev l else l) in let m := 256 ^ Z.of_nat (length l) in
                     if sg && (m / 2 <=? u) then u - m else u).
Proof. intros H. destruct l; [cbn in H; lia|reflexivity]. Qed.

Lemma int_rt n le sg x b : (1 <= n)%nat -> enc_int n le sg x = Ok b -> dec_int le sg b = x /\ length b = n /\ bytes_ok b.
Proof.
  intros Hn H. pose proof (enc_int_inv _ _ _ _ _ Hn H) as Hr. rewrite (enc_int_ok _ le _ _ Hn Hr) in H.
  injection H as <-. cbv zeta. set (m := 256 ^ Z.of_nat n). assert (Hm : 0 < m) by apply pow256_pos.
  assert (Hlen : length (if le then rev (to_be n (x mod m)) else to_be n (x mod m)) = n)
    by (rewrite rev_if_length; apply to_be_length).
  split; [|split; [exact Hlen|]].
  2:{ destruct le; [apply Forall_rev|]; apply to_be_bytes_ok. }
  rewrite dec_int_nonempty by lia. cbv zeta. rewrite Hlen. fold m. rewrite rev_if_involutive.
  rewrite from_to_be by (subst m; apply Z.mod_pos_bound; apply pow256_pos).
  pose proof (pow256_even n Hn) as Hev. fold m in Hev. unfold int_range in Hr. fold m in Hr.
  pose proof (Z.mod_pos_bound x m Hm). pose proof (Z.div_mod x m ltac:(lia)).
  destruct sg; cbn [andb].
  - destruct (m / 2 <=? x mod m) eqn:E.
    + assert (x / m = -1) by nia. lia.
    + assert (x / m = 0) by nia. lia.
  - apply Z.mod_small. lia.
Qed.

Lemma from_be_order_range (le:bool) l : bytes_ok l -> 0 <= from_be (if le then rev l else l) < 256 ^ Z.of_nat (length l).
Proof. intros Hb. rewrite <- (rev_if_length le l). apply from_be_range. destruct le; [apply Forall_rev|]; exact Hb. Qed.

(* converse of int_rt: what was read from n >= 1 octets is representable and re-encodes to the same octets *)
Lemma dec_int_range le sg b : bytes_ok b -> (1 <= length b)%nat -> int_range (length b) sg (dec_int le sg b).
Proof.
  intros Hb Hn. rewrite dec_int_nonempty by lia. unfold int_range. cbv zeta.
  pose proof (from_be_order_range le b Hb) as Hu. pose proof (pow256_even (length b) Hn) as Hev.
  destruct sg; cbn [andb]; [|lia].
  destruct (256 ^ Z.of_nat (length b) / 2 <=? from_be (if le then rev b else b)) eqn:E; lia.
Qed.

Lemma dec_enc_int le sg b : bytes_ok b -> (1 <= length b)%nat -> enc_int (length b) le sg (dec_int le sg b) = Ok b.
Proof.
  intros Hb Hn. rewrite (enc_int_ok _ le _ _ Hn (dec_int_range le sg b Hb Hn)). cbv zeta. f_equal.
  rewrite dec_int_nonempty by lia. cbv zeta. pose proof (from_be_order_range le b Hb) as Hu.
  set (u := from_be (if le then rev b else b)) in *. set (m := 256 ^ Z.of_nat (length b)) in *.
  (* the signed reading differs from u by a multiple of m *)
  replace ((if sg && (m / 2 <=? u) then u - m else u) mod m) with u.
  2:{ destruct (sg && (m / 2 <=? u)); [apply Z.mod_unique with (-1); lia|symmetry; apply Z.mod_small; lia]. }
  subst u. rewrite <- (rev_if_length le b), to_from_be by (destruct le; [apply Forall_rev|]; exact Hb).
  apply rev_if_involutive.
Qed.

(* offset and multiplier: Python's (v - offset) // mult undoes raw * mult + offset for any non-zero mult *)
Lemma offmult_rt raw off mult : mult <> 0 -> (raw * mult + off - off) / mult = raw.
Proof. intros. rewrite Z.add_simpl_r, Z.div_mul; auto. Qed.

(* one and two octets, and the integer leaves of fixed width, as explicit octets *)
Lemma from_be1 h : from_be [h] = h.
Proof. unfold from_be. cbn [fold_left]. lia. Qed.
Lemma from_be2 h h2 : from_be [h; h2] = h * 256 + h2.
Proof. unfold from_be. cbn [fold_left]. lia. Qed.
Lemma to_be1 x : 0 <= x < 256 -> to_be 1 x = [x].
Proof. intros H. cbn [to_be app]. rewrite Z.mod_small by lia. reflexivity. Qed.
Lemma to_be2 a c : 0 <= a < 256 -> 0 <= c < 256 -> to_be 2 (a * 256 + c) = [a; c].
Proof.
  intros Ha Hc. cbn [to_be app].
  rewrite Z.div_add_l, (Z.div_small c), Z.add_0_r, (Z.mod_small a), Z.add_comm, Z.mod_add, (Z.mod_small c) by lia. reflexivity.
Qed.

Lemma enc_u8 x : 0 <= x < 256 -> enc_int 1 false false x = Ok [x].
Proof. intros H. rewrite (enc_int_ok 1 false false x) by (unfold int_range; cbn; lia). cbv zeta. change (256 ^ Z.of_nat 1) with 256. rewrite Z.mod_small by lia. rewrite to_be1 by lia. reflexivity. Qed.
Lemma enc_i8 x : -128 <= x < 128 -> enc_int 1 false true x = Ok [x mod 256].
Proof. intros H. rewrite (enc_int_ok 1 false true x) by (unfold int_range; cbn; lia). cbv zeta. change (256 ^ Z.of_nat 1) with 256. rewrite to_be1 by (apply Z.mod_pos_bound; lia). reflexivity. Qed.
Lemma enc_i16 x : -32768 <= x < 32768 -> enc_int 2 false true x = Ok [x mod 65536 / 256; x mod 65536 mod 256].
Proof.
  intros H. rewrite (enc_int_ok 2 false true x) by (unfold int_range; cbn; lia). cbv zeta. change (256 ^ Z.of_nat 2) with 65536. cbn [to_be app].
  pose proof (Z.mod_pos_bound x 65536 ltac:(lia)) as Hb. set (y := x mod 65536) in *. clearbody y.
  assert (Hq : 0 <= y / 256 < 256) by (split; [apply Z.div_pos; lia|apply Z.div_lt_upper_bound; lia]).
  rewrite (Z.mod_small (y / 256) 256 Hq). reflexivity.
Qed.
Lemma enc_u32 x : 0 <= x < 4294967296 -> enc_int 4 false false x = Ok [x / 16777216 mod 256; x / 65536 mod 256; x / 256 mod 256; x mod 256].
Proof.
  intros H. rewrite (enc_int_ok 4 false false x) by (unfold int_range; cbn; lia). cbv zeta. change (256 ^ Z.of_nat 4) with 4294967296.
  rewrite Z.mod_small by lia. cbn [to_be app]. rewrite !Z.div_div by lia. reflexivity.
Qed.
