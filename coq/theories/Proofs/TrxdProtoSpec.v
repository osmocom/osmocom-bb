(* C17: the documented structure of the TRXD PDUs, written by hand in the C16 embedding, and the obligation that the
   definitions reflected from trxd_proto.py (Gen/TrxdProto.v) are exactly these.
   Field names: 0 ver, 1 tn, 2 fn, 3 rssi, 4 toa256, 5 soft-bits, 6 pad, 7 pwr, 8 hard-bits, 9 nope, 10 mod, 11 tsc,
   12 cir, 13 batch, 14 shadow, 15 trxn, 16 scpir, 17 bpdu. *)
From Coq Require Import ZArith List Bool Lia.
From OBB Require Import Gen.TrxdProto Base.Range Model.Codec.
Import ListNotations.
Open Scope Z_scope.

(* TRXDv0/v1 header octet: VER(4) RFU(1) TN(3) *)
Definition hdr01_bits (v:Z) : list bitf := [BitF (Some 0%nat) 4 (Some v); BitF None 1 None; BitF (Some 1%nat) 3 None].
Definition hdr01 (v:Z) : field := FBits (LFix 1) PAlways false (hdr01_bits v).
(* TRXDv2 header: VER(4) RFU(1) TN(3) | BATCH(1) RFU(1) TRXN(6) *)
Definition hdr2_bits : list bitf :=
  [BitF (Some 0%nat) 4 (Some 2); BitF None 1 None; BitF (Some 1%nat) 3 None; BitF (Some 13%nat) 1 None; BitF None 1 None; BitF (Some 15%nat) 6 None].
Definition hdr2 : field := FBits (LFix 2) PAlways false hdr2_bits.
(* header of a batched sub-PDU: RFU(4) RFU(1) TN(3) | BATCH(1) SHADOW(1) TRXN(6) *)
Definition hdr2b_bits : list bitf :=
  [BitF None 4 None; BitF None 1 None; BitF (Some 1%nat) 3 None; BitF (Some 13%nat) 1 None; BitF (Some 14%nat) 1 None; BitF (Some 15%nat) 6 None].
Definition hdr2b : field := FBits (LFix 2) PAlways false hdr2b_bits.
(* Modulation and Training Sequence octet: NOPE(1) MOD(4) TSC(3) *)
Definition mts_bits : list bitf := [BitF (Some 9%nat) 1 None; BitF (Some 10%nat) 4 None; BitF (Some 11%nat) 3 None].
Definition mts : field := FBits (LFix 1) PAlways false mts_bits.
(* burst length by the 4 modulation bits: GMSK 148 (0..3), 8-PSK 444 (4,5), GMSK access burst 148 (6), 16QAM 592 (8,9),
   32QAM 740 (10,11), AQPSK 296 (12..15); code 7 has no entry *)
Definition burst_tab : list (Z * nat) :=
  [(0, 148%nat); (1, 148%nat); (2, 148%nat); (3, 148%nat); (4, 444%nat); (5, 444%nat); (6, 148%nat); (8, 592%nat); (9, 592%nat);
   (10, 740%nat); (11, 740%nat); (12, 296%nat); (13, 296%nat); (14, 296%nat); (15, 296%nat)].
(* BurstBits: length by MOD, absent in NOPE indications *)
Definition burst (nm:nat) : field := FBuf nm (LTab 10 burst_tab) (PTab 9 [(0, true); (1, false)]).
Definition u8 (nm:nat) : field := FUint nm (LFix 1) PAlways false false 0 1.
Definition i8 (nm:nat) : field := FUint nm (LFix 1) PAlways false true 0 1.
Definition i16be (nm:nat) : field := FUint nm (LFix 2) PAlways false true 0 1.
Definition u32be (nm:nat) : field := FUint nm (LFix 4) PAlways false false 0 1.
Definition rssi_f : field := FUint 3 (LFix 1) PAlways false false 0 (-1).     (* RSSI is sent negated *)

Definition spec_v0_rx (rule:lensrc) : list field := [hdr01 0; u32be 2; rssi_f; i16be 4; FBuf 5 rule PAlways; FBuf 6 LRest PAlways].
Definition spec_v01_tx (v:Z) : list field := [hdr01 v; u32be 2; u8 7; FBuf 8 LRest PAlways].
Definition spec_v1_rx : list field := [hdr01 1; u32be 2; rssi_f; i16be 4; mts; i16be 12; burst 5].
Definition spec_v2_rx_item : list field := [hdr2b; mts; rssi_f; i16be 4; i16be 12; burst 5].
Definition spec_v2_rx : list field := [hdr2; mts; rssi_f; i16be 4; i16be 12; u32be 2; burst 5; FSeq 17 LRest PAlways spec_v2_rx_item].
Definition spec_v2_tx_item : list field := [hdr2b; mts; u8 7; i8 16; FSpare (LFix 3) PAlways 0; burst 8].
Definition spec_v2_tx : list field := [hdr2; mts; u8 7; i8 16; FSpare (LFix 3) PAlways 0; u32be 2; burst 8; FSeq 17 LRest PAlways spec_v2_tx_item].

(* the PDUv0Rx soft-bit length rule is taken from the source as it is (table-driven) *)
Definition v0rx_rule : lensrc := match nth_error pdu_v0_rx 4 with Some f => flen f | None => LRest end.
Definition rule_at (n:nat) : res nat := get_len v0rx_rule [] n.

Definition all_pdus : list (list field) := [pdu_v0_rx; pdu_v0_tx; pdu_v1_rx; pdu_v1_tx; pdu_v2_rx; pdu_v2_tx].

(* pdu, one of the six definitions reflected from the source, is the documented structure spec; the membership is what
   gives access to pdu_wf *)
Definition reflects (pdu spec:list field) : Prop := pdu = spec /\ In pdu all_pdus.
Lemma v0rx_reflects : reflects pdu_v0_rx (spec_v0_rx v0rx_rule). Proof. exact (conj eq_refl (nth_error_In all_pdus 0 eq_refl)). Qed.
Lemma v0tx_reflects : reflects pdu_v0_tx (spec_v01_tx 0). Proof. exact (conj eq_refl (nth_error_In all_pdus 1 eq_refl)). Qed.
Lemma v1rx_reflects : reflects pdu_v1_rx spec_v1_rx. Proof. exact (conj eq_refl (nth_error_In all_pdus 2 eq_refl)). Qed.
Lemma v1tx_reflects : reflects pdu_v1_tx (spec_v01_tx 1). Proof. exact (conj eq_refl (nth_error_In all_pdus 3 eq_refl)). Qed.
Lemma v2rx_reflects : reflects pdu_v2_rx spec_v2_rx. Proof. exact (conj eq_refl (nth_error_In all_pdus 4 eq_refl)). Qed.
Lemma v2tx_reflects : reflects pdu_v2_tx spec_v2_tx. Proof. exact (conj eq_refl (nth_error_In all_pdus 5 eq_refl)). Qed.

Lemma defs_eq :
  pdu_v0_rx = spec_v0_rx v0rx_rule /\ (exists thr a b, v0rx_rule = LDataLen thr a b) /\
  pdu_v0_tx = spec_v01_tx 0 /\ pdu_v1_rx = spec_v1_rx /\ pdu_v1_tx = spec_v01_tx 1 /\
  pdu_v2_rx = spec_v2_rx /\ pdu_v2_tx = spec_v2_tx /\
  (pdu_v0_rx_chk = true /\ pdu_v0_tx_chk = true /\ pdu_v1_rx_chk = true /\ pdu_v1_tx_chk = true /\ pdu_v2_rx_chk = true /\ pdu_v2_tx_chk = true) /\
  burst_len_unknown = [7].
Proof. repeat split; try reflexivity. do 3 eexists; reflexivity. Qed.

(* the points of the rule that the message codec's datagrams need: GMSK, legacy-padded GMSK, EDGE, legacy-padded EDGE *)
Lemma rule_points : rule_at 148 = Ok 148%nat /\ rule_at 150 = Ok 148%nat /\ rule_at 444 = Ok 444%nat /\ rule_at 446 = Ok 444%nat.
Proof. repeat split; reflexivity. Qed.

Lemma pdus_wf : forallb (fun fs => wfb fs && proto_ok fs && seq_ok fs) all_pdus = true.
Proof. vm_compute. reflexivity. Qed.

Lemma pdu_wf fs : In fs all_pdus -> wfb fs = true /\ proto_ok fs = true /\ seq_ok fs = true.
Proof.
  intros Hin. pose proof (forallb_In _ _ pdus_wf fs Hin) as H. cbv beta in H.
  apply andb_true_iff in H as [H H3]. apply andb_true_iff in H as [H1 H2]. auto.
Qed.

Definition burst_len_spec (m:Z) : option nat :=
  if (0 <=? m) && (m <=? 3) then Some 148%nat else if (4 <=? m) && (m <=? 5) then Some 444%nat else if m =? 6 then Some 148%nat
  else if (8 <=? m) && (m <=? 9) then Some 592%nat else if (10 <=? m) && (m <=? 11) then Some 740%nat
  else if (12 <=? m) && (m <=? 15) then Some 296%nat else None.
Lemma burst_tab_spec_sweep : forallb (fun m => match assocZ m burst_tab, burst_len_spec m with
    | Some a, Some b => Nat.eqb a b | None, None => true | _, _ => false end) (range 0 16) = true.
Proof. vm_compute. reflexivity. Qed.
Lemma burst_tab_spec m : 0 <= m < 16 -> assocZ m burst_tab = burst_len_spec m.
Proof.
  intros Hm. pose proof (forallb_range _ _ _ burst_tab_spec_sweep m Hm) as H. cbv beta in H.
  destruct (assocZ m burst_tab) as [a|], (burst_len_spec m) as [b|]; try discriminate; [apply Nat.eqb_eq in H; congruence|reflexivity].
Qed.
