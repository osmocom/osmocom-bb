(* TxMsg: validation = protocol ranges, encoding layout, round trip, legacy padding *)
From Coq Require Import ZArith List Bool Lia ZifyBool.
From OBB Require Import Base.Lists Gen.TrxdConst Model.Trxd Proofs.TrxdBase.
Import ListNotations.
Open Scope Z_scope.

(* the statement's ranges, literal numbers *)
Definition spec_common (ver : Z) (fn tn : option Z) : Prop :=
  (ver = 0 \/ ver = 1) /\ (exists f, fn = Some f /\ 0 <= f <= 2715647) /\ (exists t, tn = Some t /\ 0 <= t <= 7).
Definition spec_tx (m : txmsg) : Prop :=
  spec_common (t_ver m) (t_fn m) (t_tn m) /\ (exists p, t_pwr m = Some p /\ 0 <= p <= 255)
  /\ (exists b, t_burst m = Some b /\ (length b = 148%nat \/ length b = 444%nat)).

Lemma validate_common_decides ver fn tn : decides (validate_common ver fn tn) (spec_common ver fn tn).
Proof.
  unfold validate_common, spec_common. destruct (known ver) eqn:Hk; cbn [negb].
  - apply decides_and; [apply known_iff, Hk|]. apply decides_bind; [|intros _]; apply decides_in_rng.
  - apply decides_false; [|reflexivity]. intros [Hv _]. apply known_iff in Hv. congruence.
Qed.

(* the burst length check of TxMsg.validate and of RxMsg.validate_burst for version 0 *)
Lemma burst_len_decides (bo : option (list Z)) :
  decides (match bo with
           | None => VErr
           | Some b => let l := Z.of_nat (length b) in if (l =? gmsk_burst_len) || (l =? edge_burst_len) then Ok tt else VErr
           end)
          (exists b, bo = Some b /\ (length b = 148%nat \/ length b = 444%nat)).
Proof.
  apply decides_some. intros b. cbv zeta. destruct gen_bl as [-> ->].
  eapply decides_ext; [apply decides_bool|]. lia.
Qed.

Lemma validate_tx_decides m : decides (validate_tx m) (spec_tx m).
Proof.
  unfold validate_tx, spec_tx.
  apply decides_bind; [apply validate_common_decides|intros _].
  apply decides_bind; [apply decides_in_rng|intros _]. apply burst_len_decides.
Qed.

Lemma validate_tx_iff m : validate_tx m = Ok tt <-> spec_tx m.
Proof. exact (decides_iff _ _ (validate_tx_decides m)). Qed.
Lemma validate_tx_cases m : validate_tx m = Ok tt \/ validate_tx m = VErr.
Proof. exact (decides_cases _ _ (validate_tx_decides m)). Qed.

Lemma gen_tx_iff m l : (exists b, gen_tx l m = Ok b) <-> validate_tx m = Ok tt.
Proof. apply gen_iff. Qed.
Lemma gen_tx_cases m l : (exists b, gen_tx l m = Ok b) \/ gen_tx l m = VErr.
Proof. apply gen_cases, validate_tx_cases. Qed.

(* every valid message is encodable, so the round trip is not vacuous *)
Lemma tx_encodable m l : spec_tx m -> exists b, gen_tx l m = Ok b.
Proof. intros H. apply gen_tx_iff, validate_tx_iff, H. Qed.

(* documented layout of a Tx message *)
Definition layout_tx (ver fn tn pwr : Z) (burst : list Z) : list Z :=
  [ver * 16 + tn; fn / 16777216 mod 256; fn / 65536 mod 256; fn / 256 mod 256; fn mod 256; pwr] ++ burst.

Lemma gen_tx_inv m l b : gen_tx l m = Ok b ->
  exists v f t p bu, m = {| t_ver := v; t_fn := Some f; t_tn := Some t; t_pwr := Some p; t_burst := Some bu |} /\
    (v = 0 \/ v = 1) /\ 0 <= f <= 2715647 /\ 0 <= t <= 7 /\ (length bu = 148%nat \/ length bu = 444%nat) /\
    b = layout_tx v f t p bu ++ (if l && (v =? 0) then [0; 0] else []).
Proof.
  intros H. apply gen_inv in H as [Hv ->]. apply validate_tx_iff in Hv. destruct m as [v fn tn pw bo].
  destruct Hv as [[Hver [[f [Ef Hf]] [t [Et Ht]]]] [[p [Ep Hp]] [bu [Eb Hl]]]]. cbn [t_ver t_fn t_tn t_pwr t_burst] in *. subst.
  exists v, f, t, p, bu. repeat (split; [assumption || reflexivity|]).
  unfold gen_common, layout_tx, be32, oz. rewrite b0_val by lia. reflexivity.
Qed.

Lemma gen_tx_layout m l b : gen_tx l m = Ok b ->
  exists fn tn pwr bu, t_fn m = Some fn /\ t_tn m = Some tn /\ t_pwr m = Some pwr /\ t_burst m = Some bu /\
    b = layout_tx (t_ver m) fn tn pwr bu ++ (if l && (t_ver m =? 0) then [0; 0] else []).
Proof.
  intros H. destruct (gen_tx_inv _ _ _ H) as (v & f & t & p & bu & -> & _ & _ & _ & _ & ->). exists f, t, p, bu. repeat split.
Qed.

Lemma parse_tx_layout v f t p bu : v = 0 \/ v = 1 -> 0 <= f < 4294967296 -> 0 <= t < 8 ->
  parse_tx (layout_tx v f t p bu) =
  Ok {| t_ver := v; t_fn := Some f; t_tn := Some t; t_pwr := Some p;
        t_burst := if Nat.eqb (length bu) 0 then None else Some (tx_parse_burst bu) |}.
Proof.
  intros Hv Hf Ht. unfold parse_tx, layout_tx. cbn [app length Nat.ltb Nat.leb idx nth_error bind].
  destruct (b0_fields v t Ht) as [-> ->]. rewrite (proj2 (known_iff v) Hv). cbn [negb].
  change (slice _ 1 5) with (be32 f). rewrite be32_rt by exact Hf. cbn [bind].
  replace (tx_hdr_len v) with (@Ok nat 6%nat) by (destruct Hv as [-> | ->]; reflexivity).
  cbn [bind Nat.ltb Nat.leb Nat.eqb skipn]. destruct (Nat.eqb (length bu) 0); reflexivity.
Qed.

Lemma tx_parse_burst_pad bu pad : (length bu = 148%nat \/ length bu = 444%nat) -> (length pad = 0%nat \/ length pad = 2%nat) ->
  tx_parse_burst (bu ++ pad) = bu.
Proof.
  intros Hl Hp. unfold tx_parse_burst. destruct gen_bl as [-> ->]. rewrite app_length.
  assert (Hcut : forall n, Z.of_nat (length bu) = n -> firstn (Z.to_nat n) (bu ++ pad) = bu)
    by (intros n <-; apply firstn_app_len, Nat2Z.id).
  assert (Hnil : length pad = 0%nat -> bu ++ pad = bu) by (intros E; destruct pad; [apply app_nil_r|discriminate]).
  (* in each case either nothing is cut, and there is no padding, or the cut is at the length of the burst *)
  destruct (_ >=? 444) eqn:E1; destruct (_ >? _) eqn:E2; try (apply Hnil; lia); apply Hcut; lia.
Qed.

Theorem tx_roundtrip m legacy b : gen_tx legacy m = Ok b -> parse_tx b = Ok m.
Proof.
  intros H. destruct (gen_tx_inv _ _ _ H) as (v & f & t & p & bu & -> & Hv & Hf & Ht & Hl & ->).
  set (pad := if legacy && (v =? 0) then [0; 0] else []).
  assert (Hpad : length pad = 0%nat \/ length pad = 2%nat) by (subst pad; destruct (_ && _); cbn; auto).
  unfold layout_tx. rewrite <- app_assoc. fold (layout_tx v f t p (bu ++ pad)).
  rewrite parse_tx_layout by lia. rewrite tx_parse_burst_pad by assumption.
  rewrite (proj2 (Nat.eqb_neq _ 0)) by (rewrite app_length; lia). reflexivity.
Qed.

Example tx_valid_example :
  exists b, gen_tx true {| t_ver := 0; t_fn := Some 2715647; t_tn := Some 7; t_pwr := Some 255; t_burst := Some (repeat 1 148) |} = Ok b
            /\ length b = 156%nat.
Proof. eexists. split; [vm_compute; reflexivity|reflexivity]. Qed.
