(* C16: error behaviour of the codec model - which results the Envelope API can produce, termination, short input,
   trailing octets, fixed-value mismatch, unencodable values. *)
From Coq Require Import ZArith List Bool Lia.
From OBB Require Import Model.Codec Proofs.CodecInt Proofs.CodecBits Proofs.CodecRT Proofs.CodecDE.
Import ListNotations.
Open Scope Z_scope.

(* results of the Envelope API are closed *)
Definition dec_result_ok {A} (fs:list field) (r:res A) : Prop :=
  match r with Ok _ | DecodeErr _ | OutOfFuel => True | EncodeErr _ => False | Crash c => c = 9 /\ proto_ok fs = false end.
Definition enc_result_ok {A} (fs:list field) (r:res A) : Prop :=
  match r with Ok _ | EncodeErr _ | OutOfFuel => True | DecodeErr _ => False | Crash c => c = 9 /\ proto_ok fs = false end.

Lemma decode_closed chk fs data : dec_result_ok fs (decode chk fs data).
Proof.
  unfold decode. destruct (proto_ok fs) eqn:E; [|cbn; auto].
  destruct (dec (dec_fuel fs data) fs [] data) as [[v n]| | | |]; cbn [wrapD bind dec_result_ok fst snd]; auto.
  destruct (chk && negb (Nat.eqb (length data) n)); cbn; auto.
Qed.
Lemma encode_closed fs e : enc_result_ok fs (encode fs e).
Proof. unfold encode. destruct (proto_ok fs) eqn:E; [|cbn; auto]. destruct (enc (enc_fuel fs) fs e); cbn; auto. Qed.

(* OutOfFuel is only the non-terminating loop *)
Definition noof {A} (r:res A) : Prop := r <> OutOfFuel.
Lemma bind_noof {A B} (a:res A) (f:A -> res B) : noof a -> (forall x, a = Ok x -> noof (f x)) -> noof (x <- a ;; f x).
Proof. unfold noof. destruct a; cbn [bind]; intros H1 H2; try discriminate; auto. Qed.
Lemma wrapE_noof {A} (r:res A) : noof r -> noof (wrapE r).
Proof. unfold noof. destruct r; cbn [wrapE]; intros H; try discriminate; auto. Qed.
Lemma wrapD_noof {A} (r:res A) : noof r -> noof (wrapD r).
Proof. unfold noof. destruct r; cbn [wrapD]; intros H; try discriminate; auto. Qed.
Lemma ok_noof {A} (a:A) : noof (Ok a). Proof. discriminate. Qed.
Lemma tab_get_noof {A B} k (t:list (Z*A)) e (f:A -> res B) : (forall a, noof (f a)) -> noof (tab_get k t e f).
Proof. intros H. unfold tab_get. destruct (lookup k e) as [[z|b|d|l]|]; try discriminate. destruct (assocZ z t); [apply H|discriminate]. Qed.
Lemma get_pres_noof p e : noof (get_pres p e).
Proof. destruct p; cbn [get_pres]; [discriminate|]. apply tab_get_noof. intros; discriminate. Qed.
Lemma get_len_noof l e L : noof (get_len l e L).
Proof. destruct l as [[|n]| | |]; cbn [get_len]; try discriminate. apply tab_get_noof. intros; discriminate. Qed.
Lemma enc_int_noof n le sg x : noof (enc_int n le sg x).
Proof. destruct (enc_int_cases n le sg x) as [[b H]|H]; rewrite H; discriminate. Qed.
Lemma enc_bits_noof lay e : forall blob, noof (enc_bits lay e blob).
Proof. induction lay as [|[[f o] m] r IH]; intros blob; cbn [enc_bits]; [discriminate|]. apply bind_noof; [|intros; apply IH].
  destruct f as [[k|] bl [c|]]; cbn [bf_val]; try discriminate. destruct (lookup k e) as [[| | |]|]; discriminate.
Qed.
Lemma dec_bits_result lay blob : forall e, (exists e', dec_bits lay blob e = Ok e') \/ dec_bits lay blob e = DecodeErr 0.
Proof.
  induction lay as [|[[[nm bl fx] o] m] r IH]; intros e; cbn [dec_bits]; [left; eauto|].
  destruct nm as [k|]; [|apply IH]. cbv zeta. destruct fx as [c|]; [|apply IH]. destruct (_ =? c); [apply IH|right; reflexivity].
Qed.
Lemma dec_bits_noof lay blob e : noof (dec_bits lay blob e).
Proof. destruct (dec_bits_result lay blob e) as [[e' H]|H]; rewrite H; discriminate. Qed.

Lemma enc_items_noof g vs : (forall d, noof (g d)) -> noof (enc_items g vs).
Proof.
  intros Hg. induction vs as [|v r IH]; cbn [enc_items]; [discriminate|]. destruct v; try discriminate.
  apply bind_noof; [apply wrapE_noof, Hg|]. intros b _. apply bind_noof; [exact IH|]. intros; discriminate.
Qed.

Lemma enc_field_noof rec f e : (forall fs' d, (S (lsize fs') <= fsize f)%nat -> noof (rec fs' d)) -> noof (enc_field rec f e).
Proof.
  intros Hrec. unfold enc_field. apply bind_noof; [apply get_pres_noof|]. intros pr _. destruct pr; cbn [negb]; [|discriminate].
  apply bind_noof.
  - destruct f as [nm l p le sg off mult|nm l p|l p filler|l p lsb bfs|nm l p chk body|nm l p item]; cbn [enc_payload].
    + destruct (lookup nm e) as [[z| | |]|]; try discriminate. destruct (mult =? 0); [discriminate|apply enc_int_noof].
    + destruct (lookup nm e) as [[| | |]|]; discriminate.
    + apply bind_noof; [apply get_len_noof|intros; discriminate].
    + apply bind_noof; [apply enc_bits_noof|intros; apply enc_int_noof].
    + destruct (lookup nm e) as [[| |d|]|]; try discriminate. apply wrapE_noof, Hrec. cbn [fsize]. unfold lsize. lia.
    + destruct (lookup nm e) as [[| | |vs]|]; try discriminate. apply enc_items_noof. intros d. apply Hrec. cbn [fsize]. unfold lsize. lia.
  - intros data _. destruct (fixlen_f f); [discriminate|]. destruct (Nat.eqb _ _); discriminate.
Qed.

Lemma enc_total : forall fe fs e, (lsize fs < fe)%nat -> noof (enc fe fs e).
Proof.
  induction fe as [|k IH]; intros fs e Hfe; [lia|]. destruct fs as [|f fs']; cbn [enc]; [discriminate|].
  rewrite lsize_cons in Hfe. pose proof (fsize_pos f).
  apply bind_noof; [apply wrapE_noof, enc_field_noof; intros fs2 d H2; apply IH; lia|].
  intros here _. apply bind_noof; [apply IH; lia|intros; discriminate].
Qed.

Lemma static_f_spec f a : static_len_f f = Some a -> fpres f = PAlways /\ forall e L, get_len_f f e L = Ok a.
Proof.
  destruct f as [nm l p le sg off mult|nm l p|l p filler|l p lsb bfs|nm l p chk body|nm l p item]; cbn [static_len_f fpres get_len_f flen];
    destruct p; try discriminate; destruct l as [[|m]| | |]; try discriminate; intros H; injection H as <-; auto.
Qed.

Lemma static_f_used recd recs f e data e' n1 a : static_len_f f = Some a -> dec_field recd recs f e data = Ok (e', n1) -> n1 = a.
Proof.
  intros Hs Hf. destruct (static_f_spec _ _ Hs) as [Hp Hl].
  apply dec_field_inv in Hf as [[Hc _]|[_ [Hgl _]]]; [rewrite Hp in Hc; discriminate|]. rewrite Hl in Hgl. congruence.
Qed.

Lemma cons_f_static f : cons_f f = true -> exists a, static_len_f f = Some a /\ (1 <= a)%nat.
Proof.
  destruct f as [nm l p le sg off mult|nm l p|l p filler|l p lsb bfs|nm l p chk body|nm l p item]; cbn [cons_f static_len_f].
  4: { destruct p; [|discriminate]. intros H. apply Nat.leb_le in H. eauto. }
  all: destruct l as [[|m]| | |]; try discriminate; destruct p; try discriminate; intros _; exists (S m); split; [reflexivity|lia].
Qed.

Lemma consumes_used : forall fs fd e data e1 n, consumes fs = true -> dec fd fs e data = Ok (e1, n) -> (1 <= n)%nat.
Proof.
  induction fs as [|f fs' IH]; intros fd e data e1 n Hc H; [discriminate|]. destruct fd as [|k]; [discriminate|].
  apply dec_cons_inv in H as [e' [n1 [n2 [Hf [Ht ->]]]]]. unfold consumes in Hc. cbn [existsb] in Hc.
  apply orb_true_iff in Hc as [Hc|Hc].
  - destruct (cons_f_static _ Hc) as [a [Hs Ha]]. rewrite (static_f_used _ _ _ _ _ _ _ _ Hs Hf). lia.
  - pose proof (IH _ _ _ _ _ Hc Ht). lia.
Qed.

Lemma dec_field_noof recd recs f e data : seq_ok_f f = true ->
  (forall body d, seq_ok body = true -> (S (lsize body) <= fsize f)%nat -> (length d <= length data)%nat -> noof (recd body [] d)) ->
  (forall item d, consumes item = true -> seq_ok item = true -> (S (S (lsize item)) <= fsize f)%nat -> (length d <= length data)%nat -> noof (recs item d)) ->
  noof (dec_field recd recs f e data).
Proof.
  intros Hok Hd Hs. unfold dec_field. apply bind_noof; [apply get_pres_noof|]. intros pr _. destruct pr; cbn [negb]; [|discriminate].
  apply bind_noof; [destruct f; cbn [get_len_f]; try apply get_len_noof; discriminate|]. intros n _. destruct (Nat.ltb (length data) n); [discriminate|].
  apply bind_noof; [|intros; discriminate].
  assert (Hl : (length (firstn n data) <= length data)%nat) by (rewrite firstn_length; lia).
  destruct f as [nm l p le sg off mult|nm l p|l p filler|l p lsb bfs|nm l p chk body|nm l p item]; cbn [dec_payload]; try discriminate.
  - apply dec_bits_noof.
  - cbn [seq_ok_f] in Hok. apply bind_noof.
    + apply wrapD_noof, Hd; [exact Hok|cbn [fsize]; unfold lsize; lia|exact Hl].
    + intros r _. destruct (chk && _); discriminate.
  - cbn [seq_ok_f] in Hok. apply andb_true_iff in Hok as [Hc Hi]. apply bind_noof; [|intros; discriminate].
    apply Hs; [exact Hc|exact Hi|cbn [fsize]; unfold lsize; lia|exact Hl].
Qed.

(* with enough fuel the decoder only reports OutOfFuel for a sequence item that consumed nothing; if every sequence
   item has an always-present fixed-length field that cannot happen *)
Lemma dec_total : forall fd,
  (forall fs e data, seq_ok fs = true -> (lsize fs + length data < fd)%nat -> noof (dec fd fs e data)) /\
  (forall item data, consumes item = true -> seq_ok item = true -> (lsize item + length data + 1 < fd)%nat -> noof (dec_seq fd item data)).
Proof.
  induction fd as [|k [IHd IHs]]; [split; intros; lia|]. split.
  - intros fs e data Hok Hfd. destruct fs as [|f fs']; cbn [dec]; [discriminate|].
    rewrite lsize_cons in Hfd. pose proof (fsize_pos f). unfold seq_ok in Hok. cbn [forallb] in Hok. apply andb_true_iff in Hok as [Hf Hr].
    apply bind_noof.
    + apply dec_field_noof; [exact Hf| |].
      * intros body d Hb Hsz Hl. apply IHd; [exact Hb|lia].
      * intros item d Hc Hi Hsz Hl. apply IHs; [exact Hc|exact Hi|lia].
    + intros [e' n1] Hf1. cbn [fst snd]. apply bind_noof; [|intros; discriminate].
      apply IHd; [exact Hr|]. rewrite skipn_length. lia.
  - intros item data Hc Hok Hfd. cbn [dec_seq]. destruct data as [|x xs]; [discriminate|]. set (data := x :: xs) in *.
    apply bind_noof; [apply wrapD_noof, IHd; [exact Hok|lia]|].
    intros [dcv used] Hr. apply wrapD_ok in Hr. cbn [fst snd]. pose proof (consumes_used _ _ _ _ _ _ Hc Hr) as Hu.
    destruct used as [|m]; [lia|]. apply bind_noof; [|intros; discriminate].
    apply IHs; [exact Hc|exact Hok|]. rewrite skipn_length. subst data. cbn [length] in *. lia.
Qed.

Lemma decode_terminates chk fs data : seq_ok fs = true -> decode chk fs data <> OutOfFuel.
Proof.
  intros Hok. unfold decode. destruct (proto_ok fs); [|discriminate]. apply bind_noof.
  - apply wrapD_noof, (proj1 (dec_total _)); [exact Hok|unfold dec_fuel; lia].
  - intros r _. destruct (chk && _); discriminate.
Qed.
Lemma encode_terminates fs e : encode fs e <> OutOfFuel.
Proof. unfold encode. destruct (proto_ok fs); [|discriminate]. apply wrapE_noof, enc_total. unfold enc_fuel. lia. Qed.

(* Field.from_bytes: "Short read" exactly when the buffer is shorter than the field *)
Lemma short_field recd recs f e data n : get_pres (fpres f) e = Ok true -> get_len_f f e (length data) = Ok n ->
  (length data < n)%nat -> dec_field recd recs f e data = DecodeErr 0.
Proof. intros Hp Hl Hn. unfold dec_field. rewrite Hp. cbn [bind negb]. rewrite Hl. cbn [bind]. apply Nat.ltb_lt in Hn. rewrite Hn. reflexivity. Qed.

(* a definition of static size consumes exactly that size whenever it decodes *)
Lemma static_used : forall fs fd e data e1 n a, static_len fs = Some a -> dec fd fs e data = Ok (e1, n) -> n = a.
Proof.
  induction fs as [|f fs' IH]; intros fd e data e1 n a Hs H; destruct fd as [|k]; try discriminate.
  - cbn [dec] in H. cbn [static_len] in Hs. congruence.
  - apply dec_cons_inv in H as [e' [n1 [n2 [Hf [Ht ->]]]]]. cbn [static_len] in Hs.
    destruct (static_len_f f) as [a1|] eqn:E1; [|discriminate]. destruct (static_len fs') as [a2|] eqn:E2; [|discriminate].
    injection Hs as <-. rewrite (static_f_used _ _ _ _ _ _ _ _ E1 Hf). rewrite (IH _ _ _ _ _ _ eq_refl Ht). reflexivity.
Qed.

Lemma short_input chk fs data a : proto_ok fs = true -> seq_ok fs = true -> static_len fs = Some a -> (length data < a)%nat ->
  exists c, decode chk fs data = DecodeErr c.
Proof.
  intros Hpo Hok Hs Hlt. pose proof (decode_closed chk fs data) as Hcl. pose proof (decode_terminates chk fs data Hok) as Hterm.
  destruct (decode chk fs data) as [[v n]|c|c| |c] eqn:E; cbn [dec_result_ok] in Hcl; try contradiction; [|eauto|destruct Hcl; congruence].
  exfalso. apply decode_inv in E as [_ [Hd _]].
  pose proof (static_used _ _ _ _ _ _ _ Hs Hd). pose proof (dec_used_le _ _ _ _ _ _ Hd). lia.
Qed.

Lemma trailing fs e cv u b t : fits fs e [] (length t) cv u -> NoDup (keys cv) -> encode fs e = Ok b -> t <> [] ->
  decode true fs (b ++ t) = DecodeErr 0 /\ decode false fs (b ++ t) = Ok (cv, length b).
Proof.
  intros Hfit Hnd Henc Ht. destruct (fits_api _ _ _ _ _ Hfit Hnd (encode_proto_ok _ _ _ Henc)) as [b0 [_ [He [_ Hd]]]].
  rewrite He in Henc. injection Henc as <-. rewrite !Hd by reflexivity.
  replace (Nat.eqb (length (b0 ++ t)) (length b0)) with false; [split; reflexivity|].
  symmetry. apply Nat.eqb_neq. rewrite app_length. destruct t; [contradiction|cbn [length]; lia].
Qed.

Lemma dec_bits_mismatch lay blob k bl c o m : In (BitF (Some k) bl (Some c), o, m) lay -> Z.land (Z.shiftr blob o) m <> c ->
  forall e, dec_bits lay blob e = DecodeErr 0.
Proof.
  induction lay as [|[[[nm' bl' fx'] o'] m'] r IH]; intros Hin Hne e; [destruct Hin|]. destruct Hin as [E|Hin].
  - injection E as -> -> -> -> ->. cbn [dec_bits]. cbv zeta. destruct (Z.eqb_spec (Z.land (Z.shiftr blob o) m) c); [contradiction|reflexivity].
  - cbn [dec_bits]. destruct nm' as [k'|]; [|apply IH; assumption]. cbv zeta.
    destruct fx' as [c'|]; [|apply IH; assumption]. destruct (_ =? c'); [apply IH; assumption|reflexivity].
Qed.

(* a definition that starts with an always-present bit-field set (the TRXD header with its fixed version field):
   any mismatch of a fixed value is the codec's own DecodeError *)
Lemma fixed_mismatch chk l lsb bfs fs data k bl c o m :
  proto_ok (FBits l PAlways lsb bfs :: fs) = true -> (bits_len l bfs <= length data)%nat ->
  In (BitF (Some k) bl (Some c), o, m) (bits_layout l lsb bfs) ->
  Z.land (Z.shiftr (from_be (firstn (bits_len l bfs) data)) o) m <> c ->
  decode chk (FBits l PAlways lsb bfs :: fs) data = DecodeErr 0.
Proof.
  intros Hpo Hlen Hin Hne. unfold decode. rewrite Hpo. unfold dec_fuel. cbn [dec]. unfold dec_field. cbn [fpres get_pres bind negb get_len_f].
  replace (Nat.ltb (length data) (bits_len l bfs)) with false by (symmetry; apply Nat.ltb_ge; exact Hlen).
  cbn [dec_payload]. rewrite (dec_bits_mismatch _ _ _ _ _ _ _ Hin Hne). reflexivity.
Qed.

Definition enc_fails (f:field) (e:env) : Prop := forall rec, exists c, wrapE (enc_field rec f e) = EncodeErr c.

Lemma enc_fails_crash f e c : get_pres (fpres f) e = Ok true -> (forall rec, enc_payload rec f e = Crash c) -> enc_fails f e.
Proof. intros Hp Hpay rec. exists c. unfold enc_field. rewrite Hp, Hpay. reflexivity. Qed.

Lemma enc_fails_uint nm n p le sg off mult e z : (1 <= n)%nat -> get_pres p e = Ok true -> lookup nm e = Some (VInt z) -> mult <> 0 ->
  ~ int_range n sg ((z - off) / mult) -> enc_fails (FUint nm (LFix n) p le sg off mult) e.
Proof.
  intros Hn Hp Hl Hm Hr. apply enc_fails_crash with (c := 2); [exact Hp|]. intros rec. cbn [enc_payload]. rewrite Hl.
  destruct (Z.eqb_spec mult 0); [contradiction|]. apply (enc_int_overflow _ _ _ _ Hn Hr).
Qed.
Lemma enc_fails_buf nm n p e b : get_pres p e = Ok true -> lookup nm e = Some (VBytes b) -> length b <> S n ->
  enc_fails (FBuf nm (LFix (S n)) p) e.
Proof.
  intros Hp Hl Hn rec. exists 0. unfold enc_field. cbn [fpres]. rewrite Hp. cbn [bind negb enc_payload]. rewrite Hl. cbn [bind fixlen_f flen fixlen].
  destruct (Nat.eqb_spec (length b) (S n)); [contradiction|reflexivity].
Qed.
Lemma enc_fails_missing_uint nm l p le sg off mult e : get_pres p e = Ok true -> lookup nm e = None -> enc_fails (FUint nm l p le sg off mult) e.
Proof. intros Hp Hl. apply enc_fails_crash with (c := 1); [exact Hp|]. intros rec. cbn [enc_payload]. rewrite Hl. reflexivity. Qed.
Lemma enc_fails_missing_buf nm l p e : get_pres p e = Ok true -> lookup nm e = None -> enc_fails (FBuf nm l p) e.
Proof. intros Hp Hl. apply enc_fails_crash with (c := 1); [exact Hp|]. intros rec. cbn [enc_payload]. rewrite Hl. reflexivity. Qed.

Lemma enc_in_fails : forall fs fe f e, In f fs -> enc_fails f e -> (lsize fs < fe)%nat -> exists c, enc fe fs e = EncodeErr c.
Proof.
  induction fs as [|f0 fs' IH]; intros fe f e Hin Hf Hfe; [destruct Hin|]. destruct fe as [|k]; [lia|].
  rewrite lsize_cons in Hfe. pose proof (fsize_pos f0). cbn [enc].
  destruct (enc_field (enc k) f0 e) as [here|c|c| |c] eqn:E; cbn [wrapE bind]; eauto.
  - destruct Hin as [->|Hin]; [destruct (Hf (enc k)) as [c Hc]; rewrite E in Hc; discriminate|].
    destruct (IH k f e Hin Hf ltac:(lia)) as [c Hc]. rewrite Hc. cbn [bind]. eauto.
  - exfalso. revert E. apply enc_field_noof. intros fs2 d H2. apply enc_total. lia.
Qed.

Lemma unencodable fs f e : proto_ok fs = true -> In f fs -> enc_fails f e -> exists c, encode fs e = EncodeErr c.
Proof.
  intros Hpo Hin Hf. unfold encode. rewrite Hpo. destruct (enc_in_fails fs (enc_fuel fs) f e Hin Hf ltac:(unfold enc_fuel; lia)) as [c Hc].
  rewrite Hc. cbn [wrapE]. eauto.
Qed.
