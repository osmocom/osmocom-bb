(* C03 (sequential histories): every accepted burst is emitted exactly once in its own frame, or reported stale, or cleared by power-off, or still queued *)
From Coq Require Import ZArith List Bool Lia ZifyBool.
From OBB Require Import Base.Lists Gen.TrxdConst Gen.FakeTrxConst Model.Trxd Model.Trx Proofs.TrxFwd Proofs.TrxInv Proofs.TrxTick.
Import ListNotations.
Open Scope Z_scope.

(* the transmit path of ONE transceiver, as a history machine over the model's own functions *)
Inductive qop := QArrive (octets : list Z) | QTick (fn : Z) | QPowerOn | QPowerOff | QSetVer (v : Z).

Record qhist := { h_trx : trx;
                  h_accepted : list txmsg;            (* enqueued by recv_data_msg *)
                  h_emitted : list (Z * txmsg);       (* (tick frame number, burst) handed to forward_msg *)
                  h_stale : list (Z * txmsg);         (* (tick frame number, burst) logged as stale *)
                  h_cleared : list txmsg }.           (* discarded by power-off *)

Definition qstep (h : qhist) (op : qop) : qhist :=
  let t := h_trx h in
  match op with
  | QArrive d =>
    let '(t', acc) := recv_data t d in
    {| h_trx := t'; h_accepted := if acc then h_accepted h ++ skipn (length (x_q t)) (x_q t') else h_accepted h;
       h_emitted := h_emitted h; h_stale := h_stale h; h_cleared := h_cleared h |}
  | QTick fn =>
    if x_run t then
      let '(d, e, w) := part fn (x_q t) in
      {| h_trx := set_q t w; h_accepted := h_accepted h; h_emitted := h_emitted h ++ map (fun m => (fn, m)) e;
         h_stale := h_stale h ++ map (fun m => (fn, m)) d; h_cleared := h_cleared h |}
    else h
  | QPowerOn => {| h_trx := power_one true t; h_accepted := h_accepted h; h_emitted := h_emitted h; h_stale := h_stale h; h_cleared := h_cleared h |}
  | QPowerOff => {| h_trx := power_one false t; h_accepted := h_accepted h; h_emitted := h_emitted h; h_stale := h_stale h;
                    h_cleared := h_cleared h ++ x_q t |}
  | QSetVer v => {| h_trx := set_ver t v; h_accepted := h_accepted h; h_emitted := h_emitted h; h_stale := h_stale h; h_cleared := h_cleared h |}
  end.

Definition qinit (t : trx) : qhist := {| h_trx := set_q t []; h_accepted := []; h_emitted := []; h_stale := []; h_cleared := [] |}.

Definition cnt (x : txmsg -> bool) (l : list txmsg) : nat := length (filter x l).
Lemma cnt_app x a b : cnt x (a ++ b) = (cnt x a + cnt x b)%nat.
Proof. unfold cnt. rewrite filter_app, app_length. reflexivity. Qed.

(* no loss, no duplication: for EVERY class x of bursts (e.g. "this very burst") the counts balance *)
Definition conserved (h : qhist) : Prop :=
  forall x, cnt x (h_accepted h) = (cnt x (map snd (h_emitted h)) + cnt x (map snd (h_stale h)) + cnt x (h_cleared h) + cnt x (x_q (h_trx h)))%nat.

Lemma qstep_conserved h op : conserved h -> conserved (qstep h op).
Proof.
  intros H x. specialize (H x). destruct op as [d|fn| | |v]; cbn [qstep].
  - destruct (recv_data_cases (h_trx h) d) as [->|[m [_ [_ [_ ->]]]]]; [exact H|].
    cbn [h_trx h_accepted h_emitted h_stale h_cleared x_q set_q]. rewrite skipn_app, skipn_all, Nat.sub_diag. cbn [skipn app]. rewrite !cnt_app. lia.
  - destruct (x_run (h_trx h)); [|exact H]. rewrite part_filter.
    cbn [h_trx h_accepted h_emitted h_stale h_cleared x_q set_q]. rewrite !map_app, !cnt_app, !map_map. cbn [snd]. rewrite !map_id.
    pose proof (part_count fn x (x_q (h_trx h))) as P. unfold cnt in *. lia.
  - exact H.
  - cbn [h_trx h_accepted h_emitted h_stale h_cleared]. rewrite cnt_app. unfold power_one. cbn [x_q set_fh set_q]. change (cnt x []) with 0%nat. lia.
  - exact H.
Qed.

Theorem conservation t ops : conserved (fold_left qstep ops (qinit t)).
Proof. apply fold_left_inv; [exact qstep_conserved|]. intros x. reflexivity. Qed.

(* never earlier, never later: a burst is emitted only during the tick of its own frame; stale ones are strictly in the past *)
Definition timely (h : qhist) : Prop :=
  Forall (fun fm => is_due (fst fm) (snd fm) = true) (h_emitted h) /\ Forall (fun fm => is_behind (fst fm) (snd fm) = true) (h_stale h).
Lemma qstep_timely h op : timely h -> timely (qstep h op).
Proof.
  intros [H1 H2]. destruct op as [d|fn| | |v]; cbn [qstep]; try (split; assumption).
  - destruct (recv_data (h_trx h) d) as [t' acc]. split; assumption.
  - destruct (x_run (h_trx h)); [|split; assumption]. rewrite part_filter.
    split; cbn [h_emitted h_stale]; (apply Forall_app; split; [assumption|]); apply Forall_map, filter_Forall.
Qed.
Theorem timeliness t ops : timely (fold_left qstep ops (qinit t)).
Proof. apply fold_left_inv; [exact qstep_timely|]. split; constructor. Qed.

(* arrivals: enqueued iff it parses, the header version matches and the transceiver is running; otherwise no effect at all *)
Theorem arrive_exact h d :
  let h' := qstep h (QArrive d) in
  (forall m, parse_tx (firstn (Z.to_nat data_recv_size) d) = Ok m -> t_ver m = x_ver (h_trx h) -> x_run (h_trx h) = true ->
     x_q (h_trx h') = x_q (h_trx h) ++ [m] /\ h_accepted h' = h_accepted h ++ [m]) /\
  ((forall m, parse_tx (firstn (Z.to_nat data_recv_size) d) <> Ok m) \/ x_run (h_trx h) = false
     \/ (exists m, parse_tx (firstn (Z.to_nat data_recv_size) d) = Ok m /\ t_ver m <> x_ver (h_trx h)) -> h' = h).
Proof.
  cbn [qstep]. unfold recv_data. split.
  - intros m Hp Hv Hr. rewrite Hp. replace ((t_ver m =? x_ver (h_trx h)) && x_run (h_trx h)) with true by (rewrite Hr; lia).
    cbn [h_trx h_accepted x_q set_q]. rewrite skipn_app, skipn_all, Nat.sub_diag. cbn [skipn app]. auto.
  - intros H. destruct (parse_tx _) as [m| |] eqn:Ep; try (destruct h; reflexivity).
    assert (E : (t_ver m =? x_ver (h_trx h)) && x_run (h_trx h) = false).
    { destruct H as [H|[H|[m' [Hm' Hne]]]]; [exfalso; exact (H m eq_refl)|rewrite H; apply andb_false_r|].
      injection Hm' as <-. apply andb_false_intro1. lia. }
    rewrite E. destruct h; reflexivity.
Qed.

(* the world-level tick applies exactly this per-transceiver step to every transceiver: queues after Application.clck_handler(fn) *)
Theorem tick_queues w fn draws : wf_world w -> 0 <= fn ->
  let '(w', _, _) := tick w fn draws in
  forall k t, nth_error (w_trx w) k = Some t ->
    exists t', nth_error (w_trx w') k = Some t' /\
      x_q t' = (if x_run t then filter (is_ahead fn) (x_q t) else x_q t)
      /\ x_run t' = x_run t /\ x_ver t' = x_ver t /\ x_rx t' = x_rx t /\ x_tx t' = x_tx t /\ x_fh t' = x_fh t /\ x_cfg t' = x_cfg t.
Proof.
  intros Hw Hfn. unfold tick.
  pose proof (tick_loop_spec fn (length (w_trx w)) 0%nat (w_trx w) draws {| o_deliv := []; o_stale := []; o_crash := false |} Hw eq_refl ltac:(lia)) as H.
  destruct (tick_loop _ _ _ _ _ _) as [[trxs d'] out]. destruct H as [_ [_ [_ H]]].
  intros k t Hk. destruct (H k t Hk) as [t' [H1 H2]]. exists t'. split; [exact H1|].
  unfold ticked, upto_sim in H2. cbn [Nat.leb andb] in H2. destruct (x_run t) eqn:Er in *; cbn in H2; rewrite ?Er in H2; tauto.
Qed.
