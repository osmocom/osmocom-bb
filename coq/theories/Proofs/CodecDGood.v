(* C17: symbolic evaluation of the DECODER on concrete definitions, for inputs that are not encodings (reserved bits /
   spare octets holding arbitrary values).  Instances of dgood_step (Proofs/CodecRT.v) for the field shapes the TRXD PDUs
   use: always-present fixed-length integers, spares and bit-field sets, buffers, a sequence as last field. *)
From Coq Require Import ZArith List Bool Lia.
From OBB Require Import Model.Codec Proofs.CodecInt Proofs.CodecBits Proofs.CodecRT.
Import ListNotations.
Open Scope Z_scope.

Lemma dgood_eq fs e0 data cv n data' cv' n' : data = data' -> cv = cv' -> n = n' -> dgood fs e0 data cv n -> dgood fs e0 data' cv' n'.
Proof. intros -> -> ->. auto. Qed.

Lemma dgood_uint nm n le sg off mult raw bs fs e0 tail cv m : (1 <= n)%nat -> enc_int n le sg raw = Ok bs -> lookup nm e0 = None ->
  dgood fs (e0 ++ [(nm, VInt (raw * mult + off))]) tail cv m ->
  dgood (FUint nm (LFix n) PAlways le sg off mult :: fs) e0 (bs ++ tail) ([(nm, VInt (raw * mult + off))] ++ cv) (length bs + m).
Proof.
  intros Hn He Hk Hg. destruct (int_rt _ _ _ _ _ Hn He) as [Hd [Hlen _]].
  apply dgood_step; [reflexivity|cbn [get_len_f flen]; rewrite Hlen; apply get_len_fix, Hn| |exact Hg].
  intros k _. cbn [dec_payload]. rewrite Hd, eset_fresh by exact Hk. reflexivity.
Qed.

Lemma dgood_spare n fl fs e0 a tail cv m : length a = S n -> dgood fs e0 tail cv m ->
  dgood (FSpare (LFix (S n)) PAlways fl :: fs) e0 (a ++ tail) cv (length a + m).
Proof.
  intros Ha Hg. apply (dgood_step _ _ _ _ _ []); [reflexivity|cbn [get_len_f flen get_len]; rewrite Ha; reflexivity| |rewrite app_nil_r; exact Hg].
  intros k _. cbn [dec_payload]. rewrite app_nil_r. reflexivity.
Qed.

Lemma dgood_bits l lsb bfs bcv fs e0 here tail cv m : length here = bits_len l bfs ->
  dec_bits (bits_layout l lsb bfs) (from_be here) e0 = Ok (e0 ++ bcv) ->
  dgood fs (e0 ++ bcv) tail cv m ->
  dgood (FBits l PAlways lsb bfs :: fs) e0 (here ++ tail) (bcv ++ cv) (length here + m).
Proof.
  intros Hl Hd Hg. apply dgood_step; [reflexivity|cbn [get_len_f]; rewrite Hl; reflexivity| |exact Hg].
  intros k _. exact Hd.
Qed.

Lemma dgood_buf nm l p bb fs e0 tail cv m : get_pres p e0 = Ok true -> get_len l e0 (length (bb ++ tail)) = Ok (length bb) ->
  lookup nm e0 = None -> dgood fs (e0 ++ [(nm, VBytes bb)]) tail cv m ->
  dgood (FBuf nm l p :: fs) e0 (bb ++ tail) ([(nm, VBytes bb)] ++ cv) (length bb + m).
Proof.
  intros Hp Hl Hk Hg. apply dgood_step; [exact Hp|exact Hl| |exact Hg].
  intros k _. cbn [dec_payload]. rewrite eset_fresh by exact Hk. reflexivity.
Qed.

(* a sequence that takes the rest of the buffer, as the last field *)
Lemma dgood_seq_last nm p item here vcs e0 : get_pres p e0 = Ok true -> lookup nm e0 = None -> ditems item here vcs ->
  dgood [FSeq nm LRest p item] e0 here [(nm, VList vcs)] (length here).
Proof.
  intros Hp Hk Hi. apply (dgood_eq _ _ (here ++ []) ([(nm, VList vcs)] ++ []) (length here + 0)%nat); [apply app_nil_r|reflexivity|lia|].
  apply dgood_step; [exact Hp|cbn [get_len_f flen get_len]; rewrite app_nil_r; reflexivity| |apply dgood_nil].
  intros k Hk'. rewrite fsize_seq in Hk'. cbn [dec_payload]. rewrite (Hi k) by lia. cbn [bind]. rewrite eset_fresh by exact Hk. reflexivity.
Qed.

Lemma dgood_top chk fs data cv : dgood fs [] data cv (length data) -> proto_ok fs = true -> decode chk fs data = Ok (cv, length data).
Proof. intros Hg Hpo. rewrite (decode_dgood chk fs data cv _ Hpo Hg), Nat.eqb_refl, andb_false_r. reflexivity. Qed.
