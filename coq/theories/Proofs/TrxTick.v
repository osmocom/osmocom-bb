(* clock tick: no crash for well-formed worlds, invariants preserved, queue partition (C03 C14 C02) *)
From Coq Require Import ZArith List Bool Lia ZifyBool.
From OBB Require Import Base.Lists Gen.TrxdConst Gen.FakeTrxConst Model.Trxd Model.Trx
  Proofs.TrxIfLayoutP Proofs.TrxDrop Proofs.TrxMeta Proofs.TrxDropStream Proofs.TrxFwd Proofs.TrxInv.
Import ListNotations.
Open Scope Z_scope.

Lemma handle_data_ok dst src m ver draws : sim_ok dst ->
  let '(dst', d, _) := handle_data dst src m (trans m ver) draws in sim_ok dst' /\ d <> DCrash /\ s_delay dst' = s_delay dst.
Proof.
  intros Hok.
  assert (Hsup : s_muted dst = true \/ r_nope (trans m ver) = true ->
            let '(dst', d, _) := handle_data dst src m (trans m ver) draws in sim_ok dst' /\ d <> DCrash /\ s_delay dst' = s_delay dst).
  { intros H. rewrite (handle_suppressed dst src m (trans m ver) draws H). split; [exact Hok|]. split; [|reflexivity].
    destruct (r_ver (trans m ver) <? 1); [discriminate|apply send_out_total]. }
  destruct (s_muted dst) eqn:Em; [apply Hsup; left; reflexivity|].
  destruct (t_burst m) as [bits|] eqn:Eb; [|apply Hsup; right; unfold trans; cbn [r_nope]; rewrite Eb; reflexivity].
  pose proof (handle_one dst src m bits ver draws Hok Em Eb) as H.
  destruct (handle_data dst src m (trans m ver) draws) as [[dst1 d] dr]. destruct H as [-> [_ E3]].
  split; [apply sim_ok_drop, Hok|split; [exact E3|]].
  rewrite sim_drop_snd. destruct (fst _); reflexivity.
Qed.

Lemma freq_ok t fn : fh_ok t -> rx_freq t fn <> FCrash /\ tx_freq t fn <> FCrash.
Proof.
  intros Hf. unfold rx_freq, tx_freq. destruct (x_fh t) as [h|] eqn:E; [|split; discriminate].
  destruct (Hf h E) as [Hh Hm]. pose proof (fh_resolve_some h fn Hh Hm) as Hr.
  destruct (fh_resolve h fn) as [[r x]|]; [split; discriminate|congruence].
Qed.

Lemma fwd_loop_ok src_i src m txf fn :
  forall todo done j draws acc, Forall wf_trx todo -> Forall wf_trx done ->
  let '(trxs', _, _, crashed) := fwd_loop src_i src m txf fn done todo j draws acc in
  crashed = false /\ Forall wf_trx trxs'.
Proof.
  induction todo as [|t rest IH]; intros done j draws acc Ht Hd; cbn [fwd_loop].
  - split; [reflexivity|]. apply Forall_rev, Hd.
  - inversion Ht as [|t0 r0 Hwt Hwr]; subst.
    (* whatever the step does with t, it goes on with a well-formed transceiver in its place *)
    assert (Step : forall t' draws1 acc1, wf_trx t' ->
              let '(trxs', _, _, crashed) := fwd_loop src_i src m txf fn (t' :: done) rest (S j) draws1 acc1 in crashed = false /\ Forall wf_trx trxs')
      by (intros; apply IH; [exact Hwr|constructor; assumption]).
    destruct (Nat.eqb j src_i); [exact (Step t draws acc Hwt)|]. destruct (negb (x_run t)); [exact (Step t draws acc Hwt)|].
    destruct (rx_freq t fn) as [rf|] eqn:Ef; [|exfalso; exact (proj1 (freq_ok t fn (proj1 (proj2 Hwt))) Ef)].
    destruct (negb (opt_eqb rf txf)); [exact (Step t draws acc Hwt)|].
    pose proof (handle_data_ok (x_sim t) (x_sim src) m (x_ver t) draws (proj1 Hwt)) as Hh.
    destruct (handle_data (x_sim t) (x_sim src) m (trans m (x_ver t)) draws) as [[s' d] dr']. destruct Hh as [Hs' [Hd' Hdl]].
    assert (Hw' : wf_trx (set_sim t s')) by (apply wf_set_sim; [exact Hwt|exact Hs'|rewrite Hdl; apply Hwt]).
    destruct d; [exact (Step _ _ _ Hw')|exact (Step _ _ _ Hw')|congruence].
Qed.

Lemma forward_ok trxs i m draws : Forall wf_trx trxs ->
  let '(trxs', _, _, crashed) := forward trxs i m draws in crashed = false /\ Forall wf_trx trxs' .
Proof.
  intros Hw. unfold forward. destruct (nth_error trxs i) as [src|] eqn:Es; [|auto].
  pose proof (nth_wf _ _ _ Hw Es) as Hsrc.
  destruct (tx_freq src (oz (t_fn m))) as [txf|] eqn:Et; [|exfalso; exact (proj2 (freq_ok src _ (proj1 (proj2 Hsrc))) Et)].
  apply (fwd_loop_ok i src _ txf (oz (t_fn m)) trxs [] 0%nat draws [] Hw). constructor.
Qed.

Lemma forward_upto trxs i m draws : let '(trxs', _, _, _) := forward trxs i m draws in Forall2 upto_sim trxs' trxs.
Proof.
  unfold forward. destruct (nth_error trxs i) as [src|]; [|apply Forall2_same, upto_sim_refl].
  destruct (tx_freq src (oz (t_fn m))) as [txf|]; [|apply Forall2_same, upto_sim_refl].
  destruct (fwd_loop i src _ txf (oz (t_fn m)) [] trxs 0 draws []) as [[[trxs' ds] dr'] crashed] eqn:E.
  apply fwd_loop_inv in E as [l [-> [HF _]]]. exact HF.
Qed.

Lemma part_filter fn : forall q, part fn q = (filter (is_behind fn) q, filter (is_due fn) q, filter (is_ahead fn) q).
Proof.
  induction q as [|m r IH]; cbn [part filter]; [reflexivity|]. rewrite IH. unfold is_behind, is_due, is_ahead.
  destruct (fn_delta (oz (t_fn m)) fn =? 0); [reflexivity|]. destruct (fn_delta (oz (t_fn m)) fn <? gsm_hyperframe / 2); reflexivity.
Qed.

Lemma part_count fn (x : txmsg -> bool) : forall q,
  length (filter x q) = (length (filter x (filter (is_behind fn) q)) + length (filter x (filter (is_due fn) q)) + length (filter x (filter (is_ahead fn) q)))%nat.
Proof.
  induction q as [|m r IH]; cbn [filter]; [reflexivity|]. unfold is_behind, is_due, is_ahead in *.
  destruct (fn_delta (oz (t_fn m)) fn =? 0); [|destruct (fn_delta (oz (t_fn m)) fn <? gsm_hyperframe / 2)]; cbn [negb andb filter];
    destruct (x m); cbn [length]; rewrite IH; lia.
Qed.

Lemma emit_all_ok : forall ems trxs i draws acc, Forall wf_trx trxs ->
  let '(trxs', _, _, crashed) := emit_all trxs i ems draws acc in crashed = false /\ Forall wf_trx trxs' /\ Forall2 upto_sim trxs' trxs.
Proof.
  induction ems as [|m r IH]; intros trxs i draws acc Hw; cbn [emit_all].
  - split; [reflexivity|]. split; [exact Hw|apply Forall2_same, upto_sim_refl].
  - pose proof (forward_ok trxs i m draws Hw) as Hok. pose proof (forward_upto trxs i m draws) as Hfr.
    destruct (forward trxs i m draws) as [[[trxs1 ds] dr1] crashed]. destruct Hok as [-> Hw1].
    specialize (IH trxs1 i dr1 (acc ++ map (fun jd => (i, fst jd, snd jd)) ds) Hw1).
    destruct (emit_all trxs1 i r dr1 _) as [[[trxs2 a2] dr2] c2]. destruct IH as [-> [Hw2 F2]].
    split; [reflexivity|]. split; [exact Hw2|exact (Forall2_trans _ upto_sim_trans _ _ _ F2 Hfr)].
Qed.

(* clck_tick on one transceiver, as far as the queue goes: a running one keeps exactly the bursts of later frames;
   b: the loop has reached this transceiver *)
Definition ticked (fn : Z) (b : bool) (t : trx) : trx := if b && x_run t then set_q t (filter (is_ahead fn) (x_q t)) else t.
Lemma ticked_frame fn b t' t : upto_sim t' t -> upto_sim (ticked fn b t') (ticked fn b t).
Proof.
  intros A. pose proof A as (A1 & _ & _ & _ & _ & A6 & _). unfold ticked. rewrite A1, A6.
  destruct (b && x_run t); [apply upto_sim_set_q|]; exact A.
Qed.

(* one iteration of Application.clck_handler(fn); forwarding the due bursts touches simulation parameters only *)
Lemma tick_loop_step fn n i trxs draws out ti : Forall wf_trx trxs -> o_crash out = false -> nth_error trxs i = Some ti ->
  exists trxs2 draws2 out2, tick_loop (S n) i trxs fn draws out = tick_loop n (S i) trxs2 fn draws2 out2
    /\ Forall wf_trx trxs2 /\ o_crash out2 = false /\ length trxs2 = length trxs
    /\ forall k t, nth_error trxs k = Some t ->
         exists t2, nth_error trxs2 k = Some t2 /\ upto_sim t2 (if Nat.eqb i k then ticked fn true t else t).
Proof.
  intros Hw Hc Ei. cbn [tick_loop]. rewrite Ei. destruct (x_run ti) eqn:Eri; cbn [negb].
  2:{ exists trxs, draws, out. repeat split; auto. intros k t Hk. exists t. split; [exact Hk|].
      destruct (Nat.eqb_spec i k) as [<-|_]; [|apply upto_sim_refl].
      rewrite Ei in Hk. injection Hk as <-. unfold ticked. rewrite Eri. apply upto_sim_refl. }
  pose proof (nth_wf _ _ _ Hw Ei) as Hwt. rewrite part_filter. set (wt := filter (is_ahead fn) (x_q ti)).
  assert (Hw1 : Forall wf_trx (upd trxs i (fun t0 => set_q t0 wt)))
    by (apply upd_Forall; [exact Hw|intros; apply wf_set_q; [assumption|exact (incl_Forall (incl_filter _ _) (proj1 (proj2 (proj2 Hwt))))]]).
  pose proof (emit_all_ok (filter (is_due fn) (x_q ti)) (upd trxs i (fun t0 => set_q t0 wt)) i draws [] Hw1) as Hem.
  destruct (emit_all (upd trxs i (fun t0 => set_q t0 wt)) i _ draws []) as [[[trxs2 dl] dr'] crashed].
  destruct Hem as [-> [Hw2 F2]]. pose proof (Forall2_length _ _ _ F2) as L2. rewrite upd_length in L2.
  eexists trxs2, dr', _. split; [reflexivity|]. split; [exact Hw2|]. split; [reflexivity|]. split; [exact L2|].
  intros k t Hk.
  destruct (nth_error trxs2 k) as [t2|] eqn:Hk2; [|apply nth_error_None in Hk2; assert (k < length trxs)%nat by (apply nth_error_Some; congruence); lia].
  exists t2. split; [reflexivity|]. destruct (Forall2_nth_error _ _ _ F2 k t2 Hk2) as [t1 [Hk1 A]]. rewrite upd_nth, Hk in Hk1.
  destruct (Nat.eqb i k) eqn:E; cbn [option_map] in Hk1; injection Hk1 as <-; [|exact A].
  apply Nat.eqb_eq in E. subst k. rewrite Ei in Hk. injection Hk as <-. unfold ticked. rewrite Eri. exact A.
Qed.

Lemma tick_loop_spec fn : forall n i trxs draws out, Forall wf_trx trxs -> o_crash out = false -> (n + i = length trxs)%nat ->
  let '(trxs', _, out') := tick_loop n i trxs fn draws out in
  o_crash out' = false /\ Forall wf_trx trxs' /\ length trxs' = length trxs /\
  forall k t, nth_error trxs k = Some t -> exists t', nth_error trxs' k = Some t' /\ upto_sim t' (ticked fn (i <=? k)%nat t).
Proof.
  induction n as [|n IH]; intros i trxs draws out Hw Hc Hlen.
  - cbn [tick_loop]. split; [exact Hc|]. split; [exact Hw|]. split; [reflexivity|]. intros k t Hk. exists t. split; [exact Hk|].
    assert (k < length trxs)%nat by (apply nth_error_Some; congruence).
    replace (i <=? k)%nat with false by lia. apply upto_sim_refl.
  - destruct (nth_error trxs i) as [ti|] eqn:Ei; [|apply nth_error_None in Ei; lia].
    destruct (tick_loop_step fn n i trxs draws out ti Hw Hc Ei) as [trxs2 [draws2 [out2 [-> [Hw2 [Hc2 [L2 F2]]]]]]].
    specialize (IH (S i) trxs2 draws2 out2 Hw2 Hc2 ltac:(lia)).
    destruct (tick_loop n (S i) trxs2 fn draws2 out2) as [[trxs3 d3] o3]. destruct IH as [I1 [I2 [I3 I4]]].
    split; [exact I1|]. split; [exact I2|]. split; [lia|].
    intros k t Hk. destruct (F2 k t Hk) as [t2 [Hk2 A]]. destruct (I4 k t2 Hk2) as [t' [Hk' Q]]. exists t'. split; [exact Hk'|].
    apply (upto_sim_trans _ _ _ Q). apply (ticked_frame fn (S i <=? k)%nat) in A. revert A.
    destruct (Nat.eqb_spec i k) as [<-|Hne].
    + replace (S i <=? i)%nat with false by lia. rewrite Nat.leb_refl. trivial.
    + replace (i <=? k)%nat with (S i <=? k)%nat by lia. trivial.
Qed.

Theorem tick_ok w fn draws : wf_world w -> 0 <= fn ->
  let '(w', _, out) := tick w fn draws in o_crash out = false /\ wf_world w' /\ length (w_trx w') = length (w_trx w).
Proof.
  intros Hw Hfn. unfold tick.
  pose proof (tick_loop_spec fn (length (w_trx w)) 0%nat (w_trx w) draws {| o_deliv := []; o_stale := []; o_crash := false |} Hw eq_refl ltac:(lia)) as H.
  destruct (tick_loop _ _ _ _ _ _) as [[trxs d'] out]. destruct H as [H1 [H2 [H3 _]]]. auto.
Qed.

Lemma parse_tx_fn_nonneg data m : Forall (fun b => 0 <= b < 256) data -> parse_tx data = Ok m -> 0 <= oz (t_fn m).
Proof. intros Hb H. destruct (parse_tx_is_layout data m Hb H) as (fn & tn & pwr & r & rest & _ & E & _ & _ & Hfn & _). rewrite E. cbn [oz]. lia. Qed.

Lemma recv_data_cases t data : recv_data t data = (t, false) \/
  exists m, parse_tx (firstn (Z.to_nat data_recv_size) data) = Ok m /\ t_ver m = x_ver t /\ x_run t = true /\ recv_data t data = (set_q t (x_q t ++ [m]), true).
Proof.
  unfold recv_data. destruct (parse_tx _) as [m| |]; auto. destruct (t_ver m =? x_ver t) eqn:Ev; destruct (x_run t); auto.
  right. exists m. repeat split. lia.
Qed.

(* the data path: any datagram; malformed ones change nothing *)
Theorem recv_data_inv t data : wf_trx t -> Forall (fun b => 0 <= b < 256) data ->
  let '(t', acc) := recv_data t data in
  wf_trx t' /\ (acc = false -> t' = t) /\
  (acc = true -> exists m, parse_tx (firstn (Z.to_nat data_recv_size) data) = Ok m /\ t_ver m = x_ver t /\ x_run t = true /\ t' = set_q t (x_q t ++ [m])).
Proof.
  intros Hw Hb. destruct (recv_data_cases t data) as [->|[m [Ep [Ev [Er ->]]]]]; [split; [exact Hw|split; [reflexivity|discriminate]]|].
  split; [|split; [discriminate|eauto]].
  apply wf_set_q; [exact Hw|]. apply Forall_app. split; [exact (proj1 (proj2 (proj2 Hw)))|]. constructor; [|constructor].
  exact (parse_tx_fn_nonneg _ m (Forall_firstn _ _ _ Hb) Ep).
Qed.
