(* C10: content of a forwarded burst: bits, modulation, training sequence table and detection rule *)
From Coq Require Import ZArith List Bool Lia ZifyBool.
From OBB Require Import Gen.FakeTrxConst Gen.TscTab Model.Trxd Model.Trx Proofs.TrxdBase Proofs.TrxMeta.
Import ListNotations.
Open Scope Z_scope.

Lemma hard_to_soft bits : Forall (fun b => 0 <= b < 256) bits -> map u2s bits = map (fun b => if b =? 0 then 127 else -127) bits.
Proof. induction 1 as [|b l Hb _ IH]; cbn [map]; [reflexivity|]. rewrite IH, u2s_f by exact Hb. reflexivity. Qed.

Lemma soft_full_confidence bits : Forall (fun b => 0 <= b < 256) bits -> Forall (fun s => s = 127 \/ s = -127) (map u2s bits).
Proof. intros H. rewrite hard_to_soft by exact H. apply Forall_forall. intros s Hs. apply in_map_iff in Hs as [b [<- _]]. destruct (b =? 0); auto. Qed.

(* modulation follows the burst length (0 GMSK, 1 8-PSK, 3 16QAM, 4 32QAM, 5 AQPSK) *)
Lemma mod_by_len : pick_by_bl 148 = Some 0%nat /\ pick_by_bl 444 = Some 1%nat /\ pick_by_bl 296 = Some 5%nat /\ pick_by_bl 592 = Some 3%nat /\ pick_by_bl 740 = Some 4%nat.
Proof. repeat split; reflexivity. Qed.

(* the training sequences of 3GPP TS 45.002 (5.2.7-3/-4, 5.2.5-3, 5.2.3a set 1), independent of the generated table; rows in the
   enumeration order of TrainingSeqGMSK (access-burst TSC 4 before 3), which counts because ts_pick takes the first match *)
Definition bitstr (s : list Z) : list Z := s.
Definition spec_tsc_tab : list (Z * Z * Z * list Z) :=
  [(0,1,0,[0;1;0;0;1;0;1;1;0;1;1;1;1;1;1;1;1;0;0;1;1;0;0;1;1;0;1;0;1;0;1;0;0;0;1;1;1;1;0;0;0]);
   (1,1,0,[0;1;0;1;0;1;0;0;1;1;1;1;1;0;0;0;1;0;0;0;0;1;1;0;0;0;1;0;1;1;1;1;0;0;1;0;0;1;1;0;1]);
   (2,1,0,[1;1;1;0;1;1;1;1;0;0;1;0;0;1;1;1;0;1;0;1;0;1;1;0;0;0;0;0;1;1;0;1;1;0;1;1;1;0;1;1;1]);
   (4,1,0,[1;1;0;0;1;0;0;1;1;1;0;0;0;1;0;0;1;1;1;0;0;0;0;0;0;0;0;0;1;1;0;1;0;1;0;1;1;0;0;1;0]);
   (3,1,0,[1;0;0;0;1;0;0;0;1;1;1;0;1;0;1;1;1;0;1;1;0;1;0;0;0;0;0;1;0;0;0;0;1;0;1;1;0;0;0;1;0]);
   (5,1,0,[0;1;0;1;0;0;0;0;1;1;1;1;1;1;1;1;0;1;0;1;1;1;0;1;0;1;1;0;1;1;0;0;1;1;0;0;1;0;1;0;0]);
   (6,1,0,[0;1;0;1;1;1;1;0;0;1;1;1;0;1;0;1;1;1;1;0;1;1;0;1;0;0;0;1;0;0;1;1;0;0;0;0;1;0;1;1;1]);
   (7,1,0,[0;1;0;0;0;0;1;0;1;1;0;0;0;0;0;1;1;1;0;1;0;0;1;0;1;0;1;1;1;0;1;1;1;0;0;0;1;0;0;0;0]);
   (0,2,0,[1;0;1;1;1;0;0;1;0;1;1;0;0;0;1;0;0;0;0;0;0;1;0;0;0;0;0;0;1;1;1;1;0;0;1;0;1;1;0;1;0;1;0;0;0;1;0;1;0;1;1;1;0;1;1;0;0;0;0;1;1;0;1;1]);
   (1,2,0,[1;1;1;0;1;1;1;0;0;1;1;0;1;0;1;1;0;0;1;0;1;0;0;0;0;0;1;1;1;1;1;0;1;1;1;1;0;1;0;0;0;1;1;1;1;1;1;0;1;1;0;0;1;0;1;1;0;0;0;1;0;1;0;1]);
   (2,2,0,[1;1;1;0;1;1;0;0;0;0;1;1;0;1;1;1;0;1;0;1;0;0;0;1;0;1;0;1;1;0;1;0;0;1;1;1;1;0;0;0;0;0;0;1;0;0;0;0;0;0;1;0;0;0;1;1;0;1;0;0;1;1;1;0]);
   (3,2,0,[1;0;1;1;1;0;1;0;0;0;1;1;1;1;0;1;1;1;0;1;0;1;1;0;1;1;1;1;0;1;0;0;1;0;0;0;1;0;1;1;0;1;0;0;0;0;0;0;1;0;0;0;1;1;1;0;1;0;0;1;1;0;0;0]);
   (0,0,0,[0;0;1;0;0;1;0;1;1;1;0;0;0;0;1;0;0;0;1;0;0;1;0;1;1;1]);
   (1,0,0,[0;0;1;0;1;1;0;1;1;1;0;1;1;1;1;0;0;0;1;0;1;1;0;1;1;1]);
   (2,0,0,[0;1;0;0;0;0;1;1;1;0;1;1;1;0;1;0;0;1;0;0;0;0;1;1;1;0]);
   (3,0,0,[0;1;0;0;0;1;1;1;1;0;1;1;0;1;0;0;0;1;0;0;0;1;1;1;1;0]);
   (4,0,0,[0;0;0;1;1;0;1;0;1;1;1;0;0;1;0;0;0;0;0;1;1;0;1;0;1;1]);
   (5,0,0,[0;1;0;0;1;1;1;0;1;0;1;1;0;0;0;0;0;1;0;0;1;1;1;0;1;0]);
   (6,0,0,[1;0;1;0;0;1;1;1;1;1;0;1;1;0;0;0;1;0;1;0;0;1;1;1;1;1]);
   (7,0,0,[1;1;1;0;1;1;1;1;0;0;0;1;0;0;1;0;1;1;1;0;1;1;1;1;0;0])].
Lemma gen_tables : path_loss_default = 110 /\ nominal_tx_power_default = 50 /\ tx_att_default = 0 /\ toa256_base_default = 0 /\ ci_base_default = 90
  /\ tsc_tab = spec_tsc_tab.
Proof. repeat split; reflexivity. Qed.

Lemma list_eqb_eq : forall a b, list_eqb a b = true <-> a = b.
Proof.
  induction a as [|x r IH]; intros [|y s]; cbn [list_eqb]; split; try discriminate; try reflexivity.
  - intros H. apply andb_prop in H as [H1 H2]. apply IH in H2. f_equal; [lia|exact H2].
  - intros H. injection H as -> ->. rewrite Z.eqb_refl. apply IH. reflexivity.
Qed.

(* soundness of the detection: a row matches only where its burst type carries the sequence (normal: bits 61..86, access: 8..48, sync: 42..105) *)
Lemma ts_match_seg burst c bt s bits : ts_match burst (c, bt, s, bits) = true ->
  (bt = 0 /\ seg burst 61 26 = bits) \/ (bt = 1 /\ seg burst 8 41 = bits) \/ (bt = 2 /\ seg burst 42 64 = bits).
Proof.
  unfold ts_match. intros Hm.
  destruct (bt =? 0) eqn:E0; [left; split; [lia|symmetry; apply list_eqb_eq, Hm]|].
  destruct (bt =? 1) eqn:E1; [right; left; split; [lia|symmetry; apply list_eqb_eq, Hm]|].
  destruct (bt =? 2) eqn:E2; [right; right; split; [lia|symmetry; apply list_eqb_eq, Hm]|discriminate].
Qed.

Lemma ts_pick_none burst : ts_pick burst = None -> tsc_of burst = (0, 0).
Proof. intros H. unfold tsc_of. rewrite H. reflexivity. Qed.

(* access bursts as the toolkit's generator builds them: 8 tail bits, the 41-bit sequence, 36 data bits, 3 + 60 zero bits *)
Definition layout_ab (seq data : list Z) : list Z := repeat 0 8 ++ seq ++ data ++ repeat 0 63.
