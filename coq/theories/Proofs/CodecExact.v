(* C16: every field of a bit-field set has a value as soon as every entry of its layout has one. *)
From Coq Require Import ZArith List Lia.
From OBB Require Import Model.Codec.
Import ListNotations.
Open Scope Z_scope.

Definition all_named (fs:list bitf) : Prop := forall f, In f fs -> exists k bl fx, f = BitF (Some k) bl fx.

Lemma bfv_ok_named fs E : all_named fs ->
  (forall off nm bl fx o m, In (BitF nm bl fx, o, m) (layout fs off) -> exists v, bf_val (BitF nm bl fx) E = Ok v) ->
  forall f, In f fs -> exists v, bf_val f E = Ok v.
Proof.
  induction fs as [|[nm0 bl0 fx0] r IH]; intros Han H f Hin; [destruct Hin|]. destruct Hin as [<-|Hin].
  - apply (H 0 nm0 bl0 fx0 (0 - Z.of_nat bl0) (2 ^ Z.of_nat bl0 - 1)). cbn [layout]. left. reflexivity.
  - apply IH; [intros g Hg; apply Han; right; exact Hg| |exact Hin].
    intros off nm bl fx o m Hi. apply (H (off + Z.of_nat bl0) nm bl fx o m). cbn [layout]. right.
    replace (off + Z.of_nat bl0 - Z.of_nat bl0) with off by lia. exact Hi.
Qed.
