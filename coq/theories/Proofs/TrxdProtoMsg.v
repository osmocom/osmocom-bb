(* C17: typed PDU messages - their field dicts and their documented octet layouts - the step lemmas of the integer leaves
   and of the burst, and for the batched sub-PDUs "encode (fields s) = layout s" together with the premises of the C16
   round trip (packaged as `good`); the walks of the six definitions themselves are in TrxdProtoTop.v. *)
From Coq Require Import ZArith List Bool Lia.
From OBB Require Import Gen.TrxdProto Model.Codec Proofs.CodecInt Proofs.CodecBits Proofs.CodecRT Proofs.CodecDE Proofs.CodecGood Proofs.CodecDGood Proofs.TrxdProtoSpec Proofs.TrxdProtoBits.
Import ListNotations.
Open Scope Z_scope.

Lemma tab_len k tab e L z n : lookup k e = Some (VInt z) -> assocZ z tab = Some n -> get_len (LTab k tab) e L = Ok n.
Proof. intros H1 H2. cbn [get_len]. unfold tab_get. rewrite H1, H2. reflexivity. Qed.
Lemma tab_pres k tab e z b : lookup k e = Some (VInt z) -> assocZ z tab = Some b -> get_pres (PTab k tab) e = Ok b.
Proof. intros H1 H2. cbn [get_pres]. unfold tab_get. rewrite H1, H2. reflexivity. Qed.

(* the step lemmas conclude `_ ++ cv` and `_ ++ b`; for the last field this feeds them cv := [] and b := [] *)
Lemma good_last f e e0 R cv b : good [f] e e0 R (cv ++ []) (b ++ []) -> good [f] e e0 R cv b.
Proof. rewrite !app_nil_r. auto. Qed.
Lemma good_rest nm bb e e0 : lookup nm e = Some (VBytes bb) -> good [FBuf nm LRest PAlways] e e0 0 [(nm, VBytes bb)] bb.
Proof.
  intros Hl. apply good_last, good_buf; [reflexivity|reflexivity|exact Hl| |apply good_nil].
  cbn [get_len length]. f_equal. lia.
Qed.

Definition be32 (x:Z) : list Z := [x / 16777216 mod 256; x / 65536 mod 256; x / 256 mod 256; x mod 256].
Definition be16 (x:Z) : list Z := [x mod 65536 / 256; x mod 65536 mod 256].

(* the always-present big-endian integer field f stores z under the name nm and is written as the octets bs *)
Inductive leaf : field -> nat -> Z -> list Z -> Prop :=
| leaf_of nm n sg off mult raw bs : (1 <= n)%nat -> mult <> 0 -> enc_int n false sg raw = Ok bs ->
    leaf (FUint nm (LFix n) PAlways false sg off mult) nm (raw * mult + off) bs.

Lemma good_leaf f nm z bs fs e e0 R cv b : leaf f nm z bs -> lookup nm e = Some (VInt z) ->
  good fs e (e0 ++ [(nm, VInt z)]) R cv b -> good (f :: fs) e e0 R ((nm, VInt z) :: cv) (bs ++ b).
Proof.
  intros [nm' n sg off mult raw bs' Hn Hm He] Hl Hg.
  apply (good_uint nm' n PAlways false sg off mult _ raw); try reflexivity; assumption.
Qed.
Lemma dgood_leaf f nm z bs fs e0 tail cv m : leaf f nm z bs -> lookup nm e0 = None ->
  dgood fs (e0 ++ [(nm, VInt z)]) tail cv m -> dgood (f :: fs) e0 (bs ++ tail) ((nm, VInt z) :: cv) (length bs + m).
Proof. intros [nm' n sg off mult raw bs' Hn Hm He] Hl Hg. apply dgood_uint; assumption. Qed.

(* one-octet leaves, stated so that they also apply inside a literal run of octets *)
Lemma good_leaf1 f nm z x fs e e0 R cv b : leaf f nm z [x] -> lookup nm e = Some (VInt z) ->
  good fs e (e0 ++ [(nm, VInt z)]) R cv b -> good (f :: fs) e e0 R ((nm, VInt z) :: cv) ([x] ++ b).
Proof. apply good_leaf. Qed.
Lemma dgood_leaf1 f nm z x fs e0 tail cv m : leaf f nm z [x] -> lookup nm e0 = None ->
  dgood fs (e0 ++ [(nm, VInt z)]) tail cv m -> dgood (f :: fs) e0 ([x] ++ tail) ((nm, VInt z) :: cv) (1 + m).
Proof. apply dgood_leaf. Qed.

Lemma leaf_plain nm n sg z bs : (1 <= n)%nat -> enc_int n false sg z = Ok bs -> leaf (FUint nm (LFix n) PAlways false sg 0 1) nm z bs.
Proof. intros Hn He. replace z with (z * 1 + 0) at 1 by lia. constructor; [exact Hn|lia|exact He]. Qed.
Lemma u8_leaf nm z : 0 <= z < 256 -> leaf (u8 nm) nm z [z].
Proof. intros H. apply leaf_plain; [lia|apply enc_u8, H]. Qed.
Lemma i8_leaf nm z : -128 <= z < 128 -> leaf (i8 nm) nm z [z mod 256].
Proof. intros H. apply leaf_plain; [lia|apply enc_i8, H]. Qed.
Lemma i16be_leaf nm z : -32768 <= z < 32768 -> leaf (i16be nm) nm z (be16 z).
Proof. intros H. apply leaf_plain; [lia|apply enc_i16, H]. Qed.
Lemma u32be_leaf nm z : 0 <= z < 4294967296 -> leaf (u32be nm) nm z (be32 z).
Proof. intros H. apply leaf_plain; [lia|apply enc_u32, H]. Qed.
Lemma rssi_leaf z : -255 <= z <= 0 -> leaf rssi_f n_rssi z [- z].
Proof. intros H. replace z with (- z * -1 + 0) at 1 by lia. constructor; [lia|lia|apply enc_u8; lia]. Qed.

Definition tx_fields (v tn fn pwr:Z) (bits:list Z) : env :=
  [(0%nat, VInt v); (1%nat, VInt tn); (2%nat, VInt fn); (7%nat, VInt pwr); (8%nat, VBytes bits)].
Definition tx_layout (v tn fn pwr:Z) (bits:list Z) : list Z := [v * 16 + tn] ++ be32 fn ++ [pwr] ++ bits.

Definition rx0_fields (tn fn rssi toa:Z) (sb pad:list Z) : env :=
  [(0%nat, VInt 0); (1%nat, VInt tn); (2%nat, VInt fn); (3%nat, VInt rssi); (4%nat, VInt toa); (5%nat, VBytes sb); (6%nat, VBytes pad)].
Definition rx0_layout (tn fn rssi toa:Z) (sb pad:list Z) : list Z := [0 * 16 + tn] ++ be32 fn ++ [- rssi] ++ be16 toa ++ sb ++ pad.

Definition burst_ok (np md:Z) (bits:list Z) : Prop :=
  (np = 0 /\ assocZ md burst_tab = Some (length bits)) \/ (np = 1 /\ bits = []).
Definition burst_entry (nm:nat) (np:Z) (bits:list Z) : env := if np =? 0 then [(nm, VBytes bits)] else [].

(* the tail "burst; rest" of a definition, when NOPE and MOD have already been decoded into e0 *)
Lemma good_burst nm np md bits fs e e0 R cv b :
  burst_ok np md bits -> lookup n_nope e = Some (VInt np) -> lookup n_nope e0 = Some (VInt np) -> lookup n_mod e0 = Some (VInt md) ->
  (np = 0 -> lookup nm e = Some (VBytes bits)) ->
  good fs e (e0 ++ burst_entry nm np bits) R cv b ->
  good (burst nm :: fs) e e0 R (burst_entry nm np bits ++ cv) (bits ++ b).
Proof.
  intros [[-> Htab]|[-> ->]] L9 L90 L10 Lnm Hg; unfold burst, burst_entry in *; cbn [Z.eqb app] in *.
  - apply good_buf; [apply (tab_pres _ _ _ 0 true L9); reflexivity|apply (tab_pres _ _ _ 0 true L90); reflexivity|auto| |exact Hg].
    apply (tab_len _ _ _ _ md _ L10 Htab).
  - rewrite app_nil_r in Hg. apply good_absent; [apply (tab_pres _ _ _ 1 false L9); reflexivity|apply (tab_pres _ _ _ 1 false L90); reflexivity|exact Hg].
Qed.

Lemma dgood_burst nm np md bits fs e0 tail cv m : burst_ok np md bits ->
  lookup n_nope e0 = Some (VInt np) -> lookup n_mod e0 = Some (VInt md) -> lookup nm e0 = None ->
  dgood fs (e0 ++ burst_entry nm np bits) tail cv m ->
  dgood (burst nm :: fs) e0 (bits ++ tail) (burst_entry nm np bits ++ cv) (length bits + m).
Proof.
  intros [[-> Htab]|[-> ->]] L9 L10 Lnm Hg; unfold burst, burst_entry in *; cbn [Z.eqb] in *.
  - apply dgood_buf; [apply (tab_pres _ _ _ 0 true L9); reflexivity|apply (tab_len _ _ _ _ md _ L10 Htab)|exact Lnm|exact Hg].
  - cbn [app length Nat.add]. rewrite app_nil_r in Hg. apply dgood_absent; [apply (tab_pres _ _ _ 1 false L9); reflexivity|exact Hg].
Qed.

Lemma nope_range np md bits : burst_ok np md bits -> 0 <= np < 2.
Proof. intros [[-> _]|[-> _]]; lia. Qed.

Lemma burst_entry_nodup pre nm np bits post : nodupb (keys pre ++ nm :: keys post) = true ->
  NoDup (keys (pre ++ burst_entry nm np bits ++ post)).
Proof.
  intros H. apply nodupb_sound in H. rewrite !keys_app. unfold burst_entry. destruct (np =? 0); [exact H|].
  exact (NoDup_remove_1 _ _ _ H).
Qed.

Definition rx1_fields (tn fn rssi toa np md tc cir:Z) (sb:list Z) : env :=
  [(0%nat, VInt 1); (1%nat, VInt tn); (2%nat, VInt fn); (3%nat, VInt rssi); (4%nat, VInt toa);
   (9%nat, VInt np); (10%nat, VInt md); (11%nat, VInt tc); (12%nat, VInt cir)] ++ burst_entry 5 np sb.
Definition rx1_layout (tn fn rssi toa np md tc cir:Z) (sb:list Z) : list Z :=
  [1 * 16 + tn] ++ be32 fn ++ [- rssi] ++ be16 toa ++ [np * 128 + md * 8 + tc] ++ be16 cir ++ sb.

Record rxsub := { s_tn : Z; s_batch : Z; s_shadow : Z; s_trxn : Z; s_nope : Z; s_mod : Z; s_tsc : Z;
                  s_rssi : Z; s_toa : Z; s_cir : Z; s_bits : list Z }.
Definition rxsub_ok (s:rxsub) : Prop :=
  0 <= s_tn s < 8 /\ 0 <= s_batch s < 2 /\ 0 <= s_shadow s < 2 /\ 0 <= s_trxn s < 64 /\ 0 <= s_mod s < 16 /\ 0 <= s_tsc s < 8 /\
  -255 <= s_rssi s <= 0 /\ -32768 <= s_toa s < 32768 /\ -32768 <= s_cir s < 32768 /\ burst_ok (s_nope s) (s_mod s) (s_bits s).
Definition rxsub_fields (s:rxsub) : env :=
  [(1%nat, VInt (s_tn s)); (13%nat, VInt (s_batch s)); (14%nat, VInt (s_shadow s)); (15%nat, VInt (s_trxn s));
   (9%nat, VInt (s_nope s)); (10%nat, VInt (s_mod s)); (11%nat, VInt (s_tsc s));
   (3%nat, VInt (s_rssi s)); (4%nat, VInt (s_toa s)); (12%nat, VInt (s_cir s))] ++ burst_entry 5 (s_nope s) (s_bits s).
(* RFU(5) TN(3) | BATCH SHADOW TRXN(6) | NOPE MOD(4) TSC(3) | -RSSI | ToA256 | C/I | soft-bits *)
Definition rxsub_layout (s:rxsub) : list Z :=
  [s_tn s; s_batch s * 128 + s_shadow s * 64 + s_trxn s; s_nope s * 128 + s_mod s * 8 + s_tsc s; - s_rssi s]
  ++ be16 (s_toa s) ++ be16 (s_cir s) ++ s_bits s.

Lemma rxsub_good s R : rxsub_ok s -> good spec_v2_rx_item (rxsub_fields s) [] R (rxsub_fields s) (rxsub_layout s).
Proof.
  intros [Ht [Hba [Hsh [Htr [Hm [Hc [Hr [Ha [Hi Hb]]]]]]]]]. pose proof (nope_range _ _ _ Hb) as Hn.
  apply good_hdr2b; [lia|lia|lia|lia|reflexivity|reflexivity|reflexivity|reflexivity|].
  apply good_mts; [lia|lia|lia|reflexivity|reflexivity|reflexivity|].
  apply good_leaf1; [apply rssi_leaf, Hr|reflexivity|]. apply good_leaf; [apply i16be_leaf, Ha|reflexivity|].
  apply good_leaf; [apply i16be_leaf, Hi|reflexivity|].
  apply good_last, (good_burst 5 _ (s_mod s)); [exact Hb|reflexivity|reflexivity|reflexivity| |apply good_nil].
  unfold rxsub_fields. intros ->. reflexivity.
Qed.

Lemma subs_good {A} item (flds:A -> env) (lay:A -> list Z) (ok:A -> Prop) :
  (forall s R, ok s -> good item (flds s) [] R (flds s) (lay s)) -> (forall s, NoDup (keys (flds s))) -> (forall s, (1 <= length (lay s))%nat) ->
  forall subs, Forall ok subs -> items_good item (map (fun s => VDict (flds s)) subs) (map (fun s => VDict (flds s)) subs) (concat (map lay subs)).
Proof.
  intros Hg Hnd Hlen. induction 1 as [|s r Hs _ IH]; [apply items_good_nil|]. cbn [map concat].
  apply items_good_cons; [apply Hg, Hs|apply Hnd|apply Hlen|exact IH].
Qed.

Lemma rxsub_nodup s : NoDup (keys (rxsub_fields s)).
Proof. unfold rxsub_fields. rewrite <- (app_nil_r (burst_entry _ _ _)). apply burst_entry_nodup. reflexivity. Qed.
Lemma rxsub_len s : (1 <= length (rxsub_layout s))%nat.
Proof. unfold rxsub_layout. rewrite app_length. cbn [length]. lia. Qed.

Record rx2 := { m_tn : Z; m_batch : Z; m_trxn : Z; m_nope : Z; m_mod : Z; m_tsc : Z; m_rssi : Z; m_toa : Z; m_cir : Z;
                m_fn : Z; m_bits : list Z; m_subs : list rxsub }.
Definition rx2_ok (m:rx2) : Prop :=
  0 <= m_tn m < 8 /\ 0 <= m_batch m < 2 /\ 0 <= m_trxn m < 64 /\ 0 <= m_mod m < 16 /\ 0 <= m_tsc m < 8 /\
  -255 <= m_rssi m <= 0 /\ -32768 <= m_toa m < 32768 /\ -32768 <= m_cir m < 32768 /\ 0 <= m_fn m < 4294967296 /\
  burst_ok (m_nope m) (m_mod m) (m_bits m) /\ Forall rxsub_ok (m_subs m).
Definition rx2_fields (m:rx2) : env :=
  [(0%nat, VInt 2); (1%nat, VInt (m_tn m)); (13%nat, VInt (m_batch m)); (15%nat, VInt (m_trxn m));
   (9%nat, VInt (m_nope m)); (10%nat, VInt (m_mod m)); (11%nat, VInt (m_tsc m));
   (3%nat, VInt (m_rssi m)); (4%nat, VInt (m_toa m)); (12%nat, VInt (m_cir m)); (2%nat, VInt (m_fn m))]
  ++ burst_entry 5 (m_nope m) (m_bits m) ++ [(17%nat, VList (map (fun s => VDict (rxsub_fields s)) (m_subs m)))].
(* VER=2 RFU TN(3) | BATCH RFU TRXN(6) | NOPE MOD(4) TSC(3) | -RSSI | ToA256 | C/I | FN | soft-bits | batched sub-PDUs *)
Definition rx2_layout (m:rx2) : list Z :=
  [32 + m_tn m; m_batch m * 128 + m_trxn m; m_nope m * 128 + m_mod m * 8 + m_tsc m; - m_rssi m]
  ++ be16 (m_toa m) ++ be16 (m_cir m) ++ be32 (m_fn m) ++ m_bits m ++ concat (map rxsub_layout (m_subs m)).

Record txsub := { ts_tn : Z; ts_batch : Z; ts_shadow : Z; ts_trxn : Z; ts_nope : Z; ts_mod : Z; ts_tsc : Z;
                  ts_pwr : Z; ts_scpir : Z; ts_bits : list Z }.
Definition txsub_ok (s:txsub) : Prop :=
  0 <= ts_tn s < 8 /\ 0 <= ts_batch s < 2 /\ 0 <= ts_shadow s < 2 /\ 0 <= ts_trxn s < 64 /\ 0 <= ts_mod s < 16 /\ 0 <= ts_tsc s < 8 /\
  0 <= ts_pwr s < 256 /\ -128 <= ts_scpir s < 128 /\ burst_ok (ts_nope s) (ts_mod s) (ts_bits s).
Definition txsub_fields (s:txsub) : env :=
  [(1%nat, VInt (ts_tn s)); (13%nat, VInt (ts_batch s)); (14%nat, VInt (ts_shadow s)); (15%nat, VInt (ts_trxn s));
   (9%nat, VInt (ts_nope s)); (10%nat, VInt (ts_mod s)); (11%nat, VInt (ts_tsc s));
   (7%nat, VInt (ts_pwr s)); (16%nat, VInt (ts_scpir s))] ++ burst_entry 8 (ts_nope s) (ts_bits s).
(* RFU(5) TN(3) | BATCH SHADOW TRXN(6) | NOPE MOD(4) TSC(3) | PWR | SCPIR | 3 spare octets (zero) | hard-bits *)
Definition txsub_layout (s:txsub) : list Z :=
  [ts_tn s; ts_batch s * 128 + ts_shadow s * 64 + ts_trxn s; ts_nope s * 128 + ts_mod s * 8 + ts_tsc s; ts_pwr s; ts_scpir s mod 256; 0; 0; 0]
  ++ ts_bits s.

Lemma txsub_good s R : txsub_ok s -> good spec_v2_tx_item (txsub_fields s) [] R (txsub_fields s) (txsub_layout s).
Proof.
  intros [Ht [Hba [Hsh [Htr [Hm [Hc [Hp [Hs Hb]]]]]]]]. pose proof (nope_range _ _ _ Hb) as Hn.
  apply good_hdr2b; [lia|lia|lia|lia|reflexivity|reflexivity|reflexivity|reflexivity|].
  apply good_mts; [lia|lia|lia|reflexivity|reflexivity|reflexivity|].
  apply good_leaf1; [apply u8_leaf, Hp|reflexivity|]. apply good_leaf1; [apply i8_leaf, Hs|reflexivity|]. apply (good_spare 2).
  apply good_last, (good_burst 8 _ (ts_mod s)); [exact Hb|reflexivity|reflexivity|reflexivity| |apply good_nil].
  unfold txsub_fields. intros ->. reflexivity.
Qed.

Lemma txsub_nodup s : NoDup (keys (txsub_fields s)).
Proof. unfold txsub_fields. rewrite <- (app_nil_r (burst_entry _ _ _)). apply burst_entry_nodup. reflexivity. Qed.
Lemma txsub_len s : (1 <= length (txsub_layout s))%nat.
Proof. unfold txsub_layout. rewrite app_length. cbn [length]. lia. Qed.

Record tx2 := { x_tn : Z; x_batch : Z; x_trxn : Z; x_nope : Z; x_mod : Z; x_tsc : Z; x_pwr : Z; x_scpir : Z;
                x_fn : Z; x_bits : list Z; x_subs : list txsub }.
Definition tx2_ok (m:tx2) : Prop :=
  0 <= x_tn m < 8 /\ 0 <= x_batch m < 2 /\ 0 <= x_trxn m < 64 /\ 0 <= x_mod m < 16 /\ 0 <= x_tsc m < 8 /\
  0 <= x_pwr m < 256 /\ -128 <= x_scpir m < 128 /\ 0 <= x_fn m < 4294967296 /\
  burst_ok (x_nope m) (x_mod m) (x_bits m) /\ Forall txsub_ok (x_subs m).
Definition tx2_fields (m:tx2) : env :=
  [(0%nat, VInt 2); (1%nat, VInt (x_tn m)); (13%nat, VInt (x_batch m)); (15%nat, VInt (x_trxn m));
   (9%nat, VInt (x_nope m)); (10%nat, VInt (x_mod m)); (11%nat, VInt (x_tsc m));
   (7%nat, VInt (x_pwr m)); (16%nat, VInt (x_scpir m)); (2%nat, VInt (x_fn m))]
  ++ burst_entry 8 (x_nope m) (x_bits m) ++ [(17%nat, VList (map (fun s => VDict (txsub_fields s)) (x_subs m)))].
(* VER=2 RFU TN(3) | BATCH RFU TRXN(6) | NOPE MOD(4) TSC(3) | PWR | SCPIR | 3 spare octets | FN | hard-bits | batched sub-PDUs *)
Definition tx2_layout (m:tx2) : list Z :=
  [32 + x_tn m; x_batch m * 128 + x_trxn m; x_nope m * 128 + x_mod m * 8 + x_tsc m; x_pwr m; x_scpir m mod 256; 0; 0; 0]
  ++ be32 (x_fn m) ++ x_bits m ++ concat (map txsub_layout (x_subs m)).

