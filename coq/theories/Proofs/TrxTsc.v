(* C10: TSC detection; TrainingSeqGMSK.pick returns the first row of the table that matches *)
From Coq Require Import ZArith List Bool Lia.
From OBB Require Import Base.Lists Base.Range Gen.TscTab Model.Trx Proofs.TrxdBase Proofs.TrxMeta Proofs.TrxMeta2.
Import ListNotations.
Open Scope Z_scope.

Lemma seg_mid (pre mid post : list Z) n k : length pre = n -> length mid = k -> seg (pre ++ mid ++ post) n k = mid.
Proof. intros Hn Hk. unfold seg. rewrite skipn_app_len by (symmetry; exact Hn). apply firstn_app_len. symmetry. exact Hk. Qed.

Lemma seg_seg (l : list Z) a n b k : (b + k <= n)%nat -> seg (seg l a n) b k = seg l (a + b) k.
Proof.
  intros H. unfold seg. rewrite skipn_firstn_comm, firstn_firstn, Nat.min_l by lia. rewrite skipn_add. reflexivity.
Qed.

Definition row_bt (r : Z * Z * Z * list Z) : Z := match r with (_, bt, _, _) => bt end.

(* side condition of the property for normal/sync bursts: no access-burst sequence happens to sit at bits 8..48 of the payload *)
Definition no_ab_match (burst : list Z) : Prop :=
  forall r, In r spec_tsc_tab -> row_bt r = 1 -> ts_match burst r = false.

Lemma ab_rows_first : forallb (fun r => row_bt r =? 1) (firstn 8 spec_tsc_tab) && forallb (fun r => negb (row_bt r =? 1)) (skipn 8 spec_tsc_tab) = true.
Proof. vm_compute. reflexivity. Qed.

Lemma seq_lengths : forallb (fun '(_, bt, _, b) => Nat.eqb (length b) (if bt =? 0 then 26 else if bt =? 1 then 41 else 64)) spec_tsc_tab = true.
Proof. vm_compute. reflexivity. Qed.

(* within one burst type the sequences are pairwise distinct *)
Lemma seq_distinct : forallb (fun '(c, bt, s, b) => forallb (fun '(c', bt', s', b') =>
                         implb ((bt =? bt') && list_eqb b b') ((c =? c') && (s =? s'))) spec_tsc_tab) spec_tsc_tab = true.
Proof. vm_compute. reflexivity. Qed.

(* no sync sequence contains a normal-burst sequence at the offset where a normal burst carries it (bits 61..86 = offset 19 of 42..105) *)
Lemma sb_never_nb : forallb (fun '(_, bt, _, b) => forallb (fun '(_, bt', _, b') =>
                        negb ((bt =? 2) && (bt' =? 0) && list_eqb (seg b 19 26) b')) spec_tsc_tab) spec_tsc_tab = true.
Proof. vm_compute. reflexivity. Qed.

Lemma tsc_seq_length c bt s bits : In (c, bt, s, bits) spec_tsc_tab -> length bits = if bt =? 0 then 26%nat else if bt =? 1 then 41%nat else 64%nat.
Proof. intros H. apply Nat.eqb_eq. exact (forallb_In _ _ seq_lengths _ H). Qed.

Lemma list_eqb_refl a : list_eqb a a = true.
Proof. apply list_eqb_eq. reflexivity. Qed.

(* l is the part of the table searched before any row of another type could match: all of it, or just the access-burst rows *)
Lemma first_match burst l l' c bt s bits : spec_tsc_tab = l ++ l' -> In (c, bt, s, bits) l -> ts_match burst (c, bt, s, bits) = true ->
  (forall r, In r l -> ts_match burst r = true -> row_bt r = bt) -> tsc_of burst = (c, s).
Proof.
  intros Htab Hin Hm Hty. unfold tsc_of, ts_pick. change tsc_tab with spec_tsc_tab. rewrite Htab, find_app.
  assert (Hl : forall r, In r l -> In r spec_tsc_tab) by (intros r Hr; rewrite Htab; apply in_or_app; left; exact Hr).
  destruct (find (ts_match burst) l) as [[[[c' bt'] s'] bits']|] eqn:E.
  - apply find_some in E as [Hin' Hm']. assert (bt' = bt) by exact (Hty _ Hin' Hm'). subst bt'.
    (* both rows match at the position of the one burst type *)
    assert (bits' = bits)
      by (destruct (ts_match_seg _ _ _ _ _ Hm) as [[? <-]|[[? <-]|[? <-]]], (ts_match_seg _ _ _ _ _ Hm') as [[? <-]|[[? <-]|[? <-]]]; congruence).
    subst bits'.
    pose proof (forallb_In _ _ (forallb_In _ _ seq_distinct _ (Hl _ Hin')) _ (Hl _ Hin)) as D. cbv beta iota in D.
    rewrite Z.eqb_refl, list_eqb_refl in D. cbn [andb implb] in D. f_equal; lia.
  - rewrite (find_none _ _ E _ Hin) in Hm. discriminate.
Qed.

Lemma sb_nb_exclusive burst c s b c' s' b' :
  In (c, 2, s, b) spec_tsc_tab -> In (c', 0, s', b') spec_tsc_tab -> ts_match burst (c, 2, s, b) = true -> ts_match burst (c', 0, s', b') = true -> False.
Proof.
  intros H2 H0 M2 M0. apply list_eqb_eq in M2, M0.
  pose proof (forallb_In _ _ (forallb_In _ _ sb_never_nb _ H2) _ H0) as N. cbv beta iota in N.
  rewrite M2, M0, seg_seg, list_eqb_refl in N by lia. discriminate.
Qed.

Lemma match_type burst r r' : no_ab_match burst -> In r spec_tsc_tab -> In r' spec_tsc_tab ->
  ts_match burst r = true -> ts_match burst r' = true -> row_bt r <> 1 -> row_bt r' = row_bt r.
Proof.
  intros Hab Hr Hr' M M' Hn. destruct r as [[[c bt] s] b], r' as [[[c' bt'] s'] b']. cbn [row_bt] in *.
  destruct (ts_match_seg _ _ _ _ _ M) as [[-> _]|[[-> _]|[-> _]]]; [|contradiction Hn; reflexivity|].
  all: destruct (ts_match_seg _ _ _ _ _ M') as [[-> _]|[[-> _]|[-> _]]]; try reflexivity.
  all: try (rewrite (Hab _ Hr' eq_refl) in M'; discriminate).
  - destruct (sb_nb_exclusive _ _ _ _ _ _ _ Hr' Hr M' M).
  - destruct (sb_nb_exclusive _ _ _ _ _ _ _ Hr Hr' M M').
Qed.

(* for an access-burst row the search ends among the access-burst rows; for the others no access-burst row may match *)
Theorem tsc_detected burst c bt s bits : In (c, bt, s, bits) spec_tsc_tab -> ts_match burst (c, bt, s, bits) = true ->
  (bt <> 1 -> no_ab_match burst) -> tsc_of burst = (c, s).
Proof.
  intros Hin Hm Hab. destruct (Z.eq_dec bt 1) as [->|Hn].
  - pose proof ab_rows_first as K. apply andb_prop in K as [K1 K2].
    apply (first_match _ (firstn 8 spec_tsc_tab) (skipn 8 spec_tsc_tab) c 1 s bits); [symmetry; apply firstn_skipn| |exact Hm|].
    + rewrite <- (firstn_skipn 8 spec_tsc_tab) in Hin. apply in_app_or in Hin as [H|H]; [exact H|].
      pose proof (forallb_In _ _ K2 _ H) as E. discriminate.
    + intros r Hr _. pose proof (forallb_In _ _ K1 _ Hr) as E. cbv beta in E. lia.
  - apply (first_match _ spec_tsc_tab [] c bt s bits); [symmetry; apply app_nil_r|exact Hin|exact Hm|].
    intros r Hr Mr. exact (match_type _ _ _ (Hab Hn) Hin Hr Hm Mr Hn).
Qed.

Lemma ab_carries c s bits data : In (c, 1, s, bits) spec_tsc_tab -> ts_match (layout_ab bits data) (c, 1, s, bits) = true.
Proof. intros Hin. apply list_eqb_eq. symmetry. apply (seg_mid (repeat 0 8)); [reflexivity|exact (tsc_seq_length _ _ _ _ Hin)]. Qed.

(* normal burst: 3 tail bits, 57 data bits, steal flag, 26-bit sequence, steal flag, 57 data bits, 3 tail bits *)
Definition layout_nb (seq d1 d2 : list Z) (s1 s2 : Z) : list Z := repeat 0 3 ++ d1 ++ [s1] ++ seq ++ [s2] ++ d2 ++ repeat 0 3.

Lemma nb_carries c s bits d1 d2 s1 s2 : In (c, 0, s, bits) spec_tsc_tab -> length d1 = 57%nat ->
  ts_match (layout_nb bits d1 d2 s1 s2) (c, 0, s, bits) = true.
Proof.
  intros Hin Hd1. apply list_eqb_eq. symmetry. unfold layout_nb. rewrite 2 app_assoc.
  apply seg_mid; [rewrite !app_length, Hd1; reflexivity|exact (tsc_seq_length _ _ _ _ Hin)].
Qed.

(* sync burst: 3 tail bits, 39 data bits, 64-bit sequence, 39 data bits, 3 tail bits *)
Definition layout_sb (seq d1 d2 : list Z) : list Z := repeat 0 3 ++ d1 ++ seq ++ d2 ++ repeat 0 3.

Lemma sb_carries c s bits d1 d2 : In (c, 2, s, bits) spec_tsc_tab -> length d1 = 39%nat ->
  ts_match (layout_sb bits d1 d2) (c, 2, s, bits) = true.
Proof.
  intros Hin Hd1. apply list_eqb_eq. symmetry. unfold layout_sb. rewrite app_assoc.
  apply seg_mid; [rewrite app_length, Hd1; reflexivity|exact (tsc_seq_length _ _ _ _ Hin)].
Qed.
