(* C14: whole sessions - any sequence of control datagrams, data datagrams and clock ticks never crashes the transceivers;
   malformed input has no effect beyond an error reply *)
From Coq Require Import ZArith List Bool Lia ZifyBool.
From OBB Require Import Gen.TrxdConst Gen.FakeTrxConst Model.Trxd Model.Trx Proofs.TrxInv Proofs.TrxTick Proofs.TrxCtrl.
Import ListNotations.
Open Scope Z_scope.

Inductive sop := OCtrl (i : nat) (data : list Z) | OData (i : nat) (data : list Z) | OTick (fn : Z) | ODraws (l : list Z).

Definition op_ok (n : nat) (o : sop) : Prop :=
  match o with
  | OCtrl i d => (i < n)%nat
  | OData i d => (i < n)%nat /\ Forall (fun b => 0 <= b < 256) d
  | OTick fn => 0 <= fn
  | ODraws _ => True
  end.

(* one operation: (world, draws, crashed?) *)
Definition sstep (st : world * list Z * bool) (o : sop) : world * list Z * bool :=
  let '(w, draws, crashed) := st in
  if crashed then st else
  match o with
  | OCtrl i d => let '(w', out, d') := handle_rx w i d draws in (w', d', match out with RCrashed => true | _ => false end)
  | OData i d => match nth_error (w_trx w) i with
                 | Some t => (upd_trx w i (fun _ => fst (recv_data t d)), draws, false)
                 | None => (w, draws, true)
                 end
  | OTick fn => let '(w', d', out) := tick w fn draws in (w', d', o_crash out)
  | ODraws l => (w, draws ++ l, false)
  end.

Lemma sstep_ok w draws o : wf_world w -> op_ok (length (w_trx w)) o ->
  let '(w', _, crashed) := sstep (w, draws, false) o in crashed = false /\ wf_world w' /\ length (w_trx w') = length (w_trx w).
Proof.
  intros Hw Ho. destruct o as [i d|i d|fn|l]; cbn [sstep op_ok] in *.
  - pose proof (handle_rx_inv w i d draws Hw Ho) as H. destruct (handle_rx w i d draws) as [[w' out] d']. destruct H as [H1 [H2 H3]].
    split; [destruct out; [reflexivity|reflexivity|congruence]|auto].
  - destruct Ho as [Hi Hb]. destruct (nth_error (w_trx w) i) as [t|] eqn:Et; [|apply nth_error_None in Et; lia].
    pose proof (recv_data_inv t d (nth_wf _ _ _ Hw Et) Hb) as H. destruct (recv_data t d) as [t' acc]. destruct H as [H1 _]. cbn [fst].
    split; [reflexivity|]. split; [apply wf_upd_trx; [exact Hw|intros; exact H1]|apply upd_trx_length].
  - pose proof (tick_ok w fn draws Hw Ho) as H. destruct (tick w fn draws) as [[w' d'] out]. exact H.
  - auto.
Qed.

(* from the freshly constructed application (any configuration) NO history of datagrams and ticks crashes anything *)
Theorem no_history_crashes cfgs ops :
  let w0 := {| w_trx := map trx0 cfgs; w_links := []; w_gen := false |} in
  Forall (op_ok (length cfgs)) ops ->
  let '(w, _, crashed) := fold_left sstep ops (w0, [], false) in crashed = false /\ wf_world w /\ length (w_trx w) = length cfgs.
Proof.
  cbv zeta. intros Hops.
  apply (fold_left_inv_on (fun st => let '(w, _, c) := st in c = false /\ wf_world w /\ length (w_trx w) = length cfgs) (op_ok (length cfgs))); [|exact Hops|].
  - intros [[w draws] c] o Ho [-> [Hw Hl]]. rewrite <- Hl in Ho.
    pose proof (sstep_ok w draws o Hw Ho) as H. destruct (sstep (w, draws, false) o) as [[w1 d1] c1]. destruct H as [-> [Hw1 Hl1]].
    split; [reflexivity|]. split; [exact Hw1|congruence].
  - split; [reflexivity|]. split; [apply Forall_map, Forall_forall; intros c _; apply trx0_wf|apply map_length].
Qed.

(* a command that is answered with an error - an unparsable argument (CBadInt, sent as -1) or a negative status, whatever the
   verb - changes nothing at all: neither the addressed transceiver nor any other, nor the random draws.  (An unsupported but in-range
   SETFORMAT is answered with the highest supported lower version, a non-negative status, and changes nothing either: c05_setformat.) *)
Lemma error_reply_no_effect w i req draws w' r d' : parse_cmd w i req draws = (w', r, d') ->
  match r with CBadInt => True | CStatus rc _ => rc < 0 | CCrash => False end -> w' = w /\ d' = draws.
Proof.
  intros E Hr. destruct (nth_error (w_trx w) i) as [t|] eqn:Et.
  - (* every outcome that changes the world or consumes a draw carries a status >= 0 *)
    pose proof (parse_cmd_outcome w i t req draws Et) as O. rewrite E in O. inversion O; subst; auto; cbn in Hr; lia.
  - unfold parse_cmd in E. rewrite Et in E. injection E as <- <- <-. contradiction.
Qed.

(* the artificial TRXC delay (FAKE_TRXC_DELAY <ms>, slept before every reply): time.sleep() takes at most 2^63-1 ns *)
Lemma sleep_boundary : forall ms, sleep_overflows ms = true <-> 9223372036855 <= ms.
Proof. intros ms. unfold sleep_overflows. split; intros H; [|apply andb_true_intro; split]; lia. Qed.

Lemma delay_too_long_refused s a : 9223372036854 < a ->
  fake_handler s [v_FAKE_TRXC_DELAY; py_str a] = (s, Some (CStatus (-1) [])).
Proof.
  intros Ha. unfold fake_handler. eval_verb_tests. rewrite arg1. unfold trxc_delay_ms_max.
  destruct (9223372036854 <? a) eqn:E; [reflexivity|lia].
Qed.

Lemma delay_accepted_sleepable s a : a <= 9223372036854 ->
  s_delay (fst (fake_handler s [v_FAKE_TRXC_DELAY; py_str a])) = a /\ snd (fake_handler s [v_FAKE_TRXC_DELAY; py_str a]) = None /\ sleep_overflows a = false.
Proof.
  intros Ha. unfold fake_handler. eval_verb_tests. rewrite arg1. unfold trxc_delay_ms_max.
  destruct (9223372036854 <? a) eqn:E; [lia|]. cbn [fst snd sim_set s_delay]. split; [reflexivity|split; [reflexivity|]].
  apply not_true_is_false. intros H. apply sleep_boundary in H. lia.
Qed.

(* the whole datagram, on the freshly started transceiver: refused with -1, nothing changes *)
Example delay_overflow_refused_fresh :
  let w0 := {| w_trx := [trx0 {| c_idx := 0; c_mgt := true; c_clock := true; c_pm := true; c_children := [] |}]; w_links := []; w_gen := false |} in
  let cmd := [67;77;68;32] ++ v_FAKE_TRXC_DELAY ++ [32] ++ py_str 9223372036855 ++ [0] in
  let '(w1, out, _) := handle_rx w0 0%nat cmd [] in
  w1 = w0 /\ out = RReply ([82;83;80;32] ++ v_FAKE_TRXC_DELAY ++ [32;45;49;32] ++ py_str 9223372036855 ++ [0]).
Proof. vm_compute. split; reflexivity. Qed.
