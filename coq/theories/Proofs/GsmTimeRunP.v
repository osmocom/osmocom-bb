(* Lemmas about the firmware's running GSM time (Model/GsmTimeRun.v) and the call-site expressions (Gen/GsmTimeSites.v). *)
From Coq Require Import ZArith List Bool Lia ZifyBool.
From OBB Require Import Base.Bits Gen.GsmTimeConst Gen.GsmTimeSites Model.GsmTime Model.GsmTimeRun Proofs.GsmTimeP.
Import ListNotations.
Open Scope Z_scope.
Ltac Zify.zify_post_hook ::= Z.to_euclidean_division_equations.

(* g is exactly the (FN, T1, T2, T3, TC) of a frame number of the hyperframe *)
Definition is_frame (g : gt) : Prop := 0 <= g_fn g < 2715648 /\ g = decomp (g_fn g).
Definition TimeOK (st : tstate) : Prop :=
  is_frame (cur st) /\ is_frame (nxt st) /\ g_fn (nxt st) = (g_fn (cur st) + 1) mod 2715648.
(* before the first frame interrupt only this holds *)
Definition TimeWeak (st : tstate) : Prop := is_frame (cur st) /\ is_frame (nxt st).

Lemma is_frame_fields g : is_frame g <->
  0 <= g_fn g < 2715648 /\
  g_t1 g = g_fn g / 1326 /\ g_t2 g = g_fn g mod 26 /\ g_t3 g = g_fn g mod 51 /\ g_tc g = (g_fn g / 51) mod 8.
Proof.
  unfold is_frame, decomp. destruct g as [f t1 t2 t3 tc]. cbn [g_fn g_t1 g_t2 g_t3 g_tc]. split.
  - intros [Hf E]. injection E as E1 E2 E3 E4. auto.
  - intros (Hf & -> & -> & -> & ->). auto.
Qed.

Lemma is_frame_decomp f : 0 <= f < 2715648 -> is_frame (decomp f).
Proof. intros Hf. split; cbn [decomp g_fn]; [exact Hf | reflexivity]. Qed.

Lemma weak_of_ok st : TimeOK st -> TimeWeak st.
Proof. intros [Hc [Hn _]]. split; assumption. Qed.

Lemma mk_ok c tp : 0 <= c < 2715648 ->
  TimeOK {| cur := decomp c; nxt := time_inc (decomp c) 1; tpu := tp |}.
Proof.
  intros Hc. rewrite inc1 by exact Hc.
  split; [apply is_frame_decomp; exact Hc|]. split; [apply is_frame_decomp, Z.mod_pos_bound|]; reflexivity.
Qed.

Lemma frame_irq_ok st : is_frame (nxt st) ->
  TimeOK (frame_irq st) /\ cur (frame_irq st) = nxt st.
Proof.
  intros [Hn En]. unfold frame_irq. split; [|reflexivity].
  rewrite En. apply mk_ok. exact Hn.
Qed.

Lemma frame_irq_next st : TimeOK st ->
  TimeOK (frame_irq st) /\ g_fn (cur (frame_irq st)) = (g_fn (cur st) + 1) mod 2715648.
Proof.
  intros [Hc [Hn Hs]]. destruct (frame_irq_ok st Hn) as [Hok Hcur]. split; [exact Hok|]. rewrite Hcur. exact Hs.
Qed.

Lemma irq_n_ok n : forall st, TimeOK st ->
  TimeOK (irq_n n st) /\ g_fn (cur (irq_n n st)) = (g_fn (cur st) + Z.of_nat n) mod 2715648.
Proof.
  induction n as [|n IH]; intros st Hok.
  - cbn [irq_n]. split; [exact Hok|]. destruct Hok as [[Hc _] _]. cbn [Z.of_nat]. lia.
  - cbn [irq_n]. destruct (frame_irq_next st Hok) as [Hok' Hf]. destruct (IH _ Hok') as [Hok'' Hf'].
    split; [exact Hok''|]. rewrite Hf', Hf. destruct Hok as [[Hc _] _].
    replace (Z.of_nat (S n)) with (Z.of_nat n + 1) by lia.
    rewrite Zplus_mod_idemp_l. f_equal. lia.
Qed.

Lemma sync_delta_val st fo ta : -2147483648 < fo <= 2147483647 ->
  sync_delta st fo ta = fo - 1 + (if sync_shift st ta <? 4990 then 1 else 0) /\
  -2147483648 <= fo - 1 + (if sync_shift st ta <? 4990 then 1 else 0) < 2147483648.
Proof.
  intros Hfo. unfold sync_delta. change c_SWITCH_TIME with 4990. unfold s32. destruct (_ <? 4990) eqn:E; lia.
Qed.

Lemma sync_shift_val st ta : 0 <= tpu st -> 0 <= ta ->
  sync_shift st ta = ((tpu st + (ta + 75) mod 4294967296) mod 4294967296) mod 5000.
Proof.
  intros Ht Ha. unfold sync_shift, u32. change c_QBITS_PER_TDMA with 5000. rewrite Z.rem_mod_nonneg; lia.
Qed.

Lemma sync_ok st fo ta : is_frame (cur st) -> -2147483648 < fo <= 2147483647 ->
  0 <= g_fn (cur st) + (fo - 1 + (if sync_shift st ta <? 4990 then 1 else 0)) < 2 * 2715648 ->
  TimeOK (sync_tdma st fo ta) /\
  g_fn (cur (sync_tdma st fo ta)) = (g_fn (cur st) + (fo - 1 + (if sync_shift st ta <? 4990 then 1 else 0))) mod 2715648 /\
  tpu (sync_tdma st fo ta) = sync_shift st ta.
Proof.
  intros [Hc Ec] Hfo Hr. unfold sync_tdma. destruct (sync_delta_val st fo ta Hfo) as [-> Hd].
  rewrite Ec, time_inc_signed by assumption.
  split; [apply mk_ok, Z.mod_pos_bound; reflexivity|]. split; reflexivity.
Qed.

(* a range that does not depend on the state *)
Lemma sync_ok_pos st fo ta : is_frame (cur st) -> 1 <= fo <= 2715648 ->
  TimeOK (sync_tdma st fo ta) /\
  g_fn (cur (sync_tdma st fo ta)) = (g_fn (cur st) + (fo - 1 + (if sync_shift st ta <? 4990 then 1 else 0))) mod 2715648.
Proof.
  intros Hf Hfo. assert (Hc := proj1 Hf).
  destruct (sync_ok st fo ta Hf) as [A [B _]]; [lia | destruct (_ <? 4990); lia | split; assumption].
Qed.

(* witness: re-synchronisation by fn_offset 0 without the compensation frame while the current frame is 0 *)
Example sync_refuted :
  let st := {| cur := decomp 0; nxt := decomp 1; tpu := 0 |} in
  TimeOK st /\ sync_shift st 4915 = 4990 /\ gt_obs (cur (sync_tdma st 0 4915)) = [4292251647; 25728; 21; 0; 5].
Proof.
  cbv zeta. split; [apply (mk_ok 0 0); lia|]. split; vm_compute; reflexivity.
Qed.

Lemma fbsb_site_val m aux : 0 <= m < 4294967294 -> site_prim_fbsb_1 m aux = (m + 2) mod 2715648.
Proof. intros Hm. unfold site_prim_fbsb_1, w32. lia. Qed.

Lemma fbsb_ok st m : 0 <= m < 4294967294 ->
  TimeOK (fbsb_reinit st m) /\ g_fn (cur (fbsb_reinit st m)) = (m + 2) mod 2715648 /\ tpu (fbsb_reinit st m) = tpu st.
Proof.
  intros Hm. unfold fbsb_reinit. rewrite fbsb_site_val, fn2gsmtime_mod by exact Hm.
  split; [apply mk_ok, Z.mod_pos_bound; reflexivity|]. split; reflexivity.
Qed.

Lemma sb_fields_range sb : 0 <= sb_t1 sb < 2048 /\ 0 <= sb_t2 sb < 32 /\ 0 <= sb_t3p sb < 8.
Proof.
  unfold sb_t1, sb_t2, sb_t3p. split; [|split].
  - change 2048 with (2 ^ 11). apply lor_lt; [apply lor_lt|..]; try lia; apply land_lt; lia.
  - change 32 with (2 ^ 5). apply land_lt; lia.
  - change 8 with (2 ^ 3). apply lor_lt; try lia; apply land_lt; lia.
Qed.

(* a (T1, T2, T3') that names an SCH frame decodes to exactly that frame; such a frame lies at least 10 frames before the end *)
Lemma sb_time_ok t1 t2 t3p : 0 <= t1 < 2048 -> 0 <= t2 < 26 -> 0 <= t3p <= 4 ->
  is_frame (sb_time t1 t2 t3p) /\ g_t1 (sb_time t1 t2 t3p) = t1 /\ g_t2 (sb_time t1 t2 t3p) = t2 /\
  g_t3 (sb_time t1 t2 t3p) = 10 * t3p + 1 /\ g_fn (sb_time t1 t2 t3p) <= 2715638.
Proof.
  intros H1 H2 H3. unfold sb_time, u16, u8.
  rewrite (Z.mod_small t1), (Z.mod_small t2), (Z.mod_small (t3p * 10 + 1)) by lia.
  destruct (gsmtime2fn_fields 0 t1 t2 (t3p * 10 + 1) 0) as (Hf & E1 & E2 & E3); try lia.
  set (f := gsmtime2fn _) in *. unfold H in Hf.
  rewrite is_frame_fields. cbn [g_fn g_t1 g_t2 g_t3 g_tc]. repeat split; lia.
Qed.

(* whatever the burst word says, the decoded frame number stays below 2^32 - 2 ... *)
Lemma decode_sb_small sb : 0 <= g_fn (decode_sb sb) < 4294967294.
Proof.
  destruct (sb_fields_range sb) as [A [B C]]. unfold decode_sb, sb_time, gsmtime2fn, u8, u16, u32. cbn [g_fn g_t1 g_t2 g_t3].
  rewrite (Z.mod_small (sb_t1 sb)), (Z.mod_small (sb_t2 sb)), (Z.mod_small (sb_t3p sb * 10 + 1)) by lia. lia.
Qed.

(* ... so that even a burst word outside the coding (T1 = 2047, T2 = 20, T3' = 7, decoded frame number 2715668) leaves a consistent running time *)
Example decode_sb_outside_coding :
  gt_obs (decode_sb 30670595) = [2715668; 2047; 20; 71; 0] /\
  st_obs (step boot (OSb 30670595)) = [22; 0; 22; 22; 0; 23; 0; 23; 23; 0; 0].
Proof. vm_compute. repeat split; reflexivity. Qed.

Definition op_safe (o : op) : Prop :=
  match o with
  | OIrq _ => True
  | OSync fo _ => 1 <= fo <= 2715648
  | OFbsb m => 0 <= m < 4294967294
  | OSb sb => True
  | ORaw s => TimeOK s
  end.

(* every operation but the empty run of interrupts ends with next_time = current_time + 1, whatever next_time was before *)
Lemma step_establishes st o : TimeWeak st -> op_safe o -> o <> OIrq O -> TimeOK (step st o).
Proof.
  intros [Hc Hn] Hs Hne. destruct o as [[|n]|fo ta|m|sb|s]; cbn [step op_safe] in *.
  - contradiction Hne. reflexivity.
  - cbn [irq_n]. apply (irq_n_ok n), (frame_irq_ok st Hn).
  - apply (sync_ok_pos st fo ta Hc Hs).
  - apply (fbsb_ok st m Hs).
  - apply (fbsb_ok st _ (decode_sb_small sb)).
  - exact Hs.
Qed.

Lemma step_ok st o : TimeOK st -> op_safe o -> TimeOK (step st o).
Proof.
  intros Hok Hs. pose proof (step_establishes st o (weak_of_ok st Hok) Hs) as E.
  destruct o as [[|n]| | | |]; try (apply E; discriminate). exact Hok.
Qed.

Lemma run_ok ops : forall st, TimeOK st -> Forall op_safe ops -> TimeOK (run st ops).
Proof.
  unfold run. induction ops as [|o r IH]; intros st Hok Hf; cbn [fold_left]; [exact Hok|].
  inversion Hf as [|o' r' Ho Hr]; subst. apply IH; [apply step_ok; assumption|exact Hr].
Qed.

Lemma boot_weak : TimeWeak boot.
Proof. split; split; cbn; try lia; reflexivity. Qed.

Lemma boot_not_ok : ~ TimeOK boot.
Proof. intros [_ [_ E]]. vm_compute in E. discriminate. Qed.

(* fn2gsmtime_mod paired with its own hypothesis: the shape of the call-site statements of C19 *)
Lemma site_frame e a : e = a mod 2715648 -> e = a mod 2715648 /\ fn2gsmtime e = decomp (a mod 2715648).
Proof. intros ->. split; [reflexivity|apply fn2gsmtime_mod]. Qed.

(* (fn - k + GSM_MAX_FN) % GSM_MAX_FN in uint32_t, the argument of gsm_fn2gsmtime in prim_tch.c and prim_rx_nb.c (k = 1, 4):
   the subtraction may wrap below 0, adding GSM_MAX_FN wraps back; the bound on k is stated so that eq_refl proves it *)
Lemma site_back k v : (0 <=? k) && (k <=? 2715648) = true -> 0 <= v < 2715648 ->
  Z.rem (w32 (w32 (v - k) + 2715648)) 2715648 = (v - k) mod 2715648 /\
  fn2gsmtime (Z.rem (w32 (w32 (v - k) + 2715648)) 2715648) = decomp ((v - k) mod 2715648).
Proof. intros Hk Hv. apply site_frame. unfold w32. lia. Qed.

(* non-vacuity: the frames right after the hyperframe wrap *)
Example site_rx_nb_wrap :
  gt_obs (fn2gsmtime (site_prim_rx_nb_1 0 0)) = [2715647; 2047; 25; 50; 7] /\ gt_obs (fn2gsmtime (site_prim_rx_nb_2 3 0)) = [2715647; 2047; 25; 50; 7] /\
  site_prim_rx_nb_2 0 0 = 2715644.
Proof. vm_compute. repeat split; reflexivity. Qed.

Lemma site_rach_1 v aux : 0 <= v < 2715648 -> 0 <= aux < 65536 ->
  site_prim_rach_1 v aux = (v + aux) mod 2715648.
Proof. intros Hv Ha. unfold site_prim_rach_1, w32. cbv zeta. lia. Qed.

Lemma site_freq_1 v aux : 0 <= v < 2715648 -> 0 <= aux <= 2715648 ->
  site_prim_freq_1 v aux = (v + aux) mod 2715648.
Proof. intros Hv Ha. unfold site_prim_freq_1, w32. cbv zeta. destruct (_ >=? _) eqn:E; lia. Qed.

Example wrap_run :
  let st := {| cur := decomp 2715646; nxt := decomp 2715647; tpu := 0 |} in
  TimeOK st /\
  st_obs (frame_irq st) = [2715647; 2047; 25; 50; 7; 0; 0; 0; 0; 0; 0] /\
  st_obs (frame_irq (frame_irq st)) = [0; 0; 0; 0; 0; 1; 0; 1; 1; 0; 0].
Proof. cbv zeta. split; [apply (mk_ok 2715646 0); lia|]. split; vm_compute; reflexivity. Qed.

(* the re-synchronisation that lands on the last frame of the hyperframe: next_time is frame 0 *)
Example sync_lands_on_last :
  let st := {| cur := decomp 2715646; nxt := decomp 2715647; tpu := 0 |} in
  op_safe (OSync 1 0) /\ st_obs (sync_tdma st 1 0) = [2715647; 2047; 25; 50; 7; 0; 0; 0; 0; 0; 75] /\
  st_obs (sync_tdma st 2 4915) = [2715647; 2047; 25; 50; 7; 0; 0; 0; 0; 0; 4990].
Proof. cbv zeta. split; [cbn; lia|]. split; vm_compute; reflexivity. Qed.

Example boot_first_irq : st_obs (frame_irq boot) = [0; 0; 0; 0; 0; 1; 0; 1; 1; 0; 0].
Proof. vm_compute. reflexivity. Qed.

Example history_example :
  Forall op_safe [OIrq 3; OSync 1326 0; OIrq 2; OSb (1024 + 4); OIrq 1] /\
  st_obs (run boot [OIrq 3; OSync 1326 0; OIrq 2]) = [1330; 1; 4; 4; 2; 1331; 1; 5; 5; 2; 75].
Proof.
  split.
  - repeat constructor; cbn; try lia; vm_compute; intuition discriminate.
  - vm_compute. reflexivity.
Qed.
Ltac Zify.zify_post_hook ::= idtac.
