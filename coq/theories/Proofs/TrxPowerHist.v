(* C12 over histories: running = last effective power command; clock links invariant under arbitrary control datagrams *)
From Coq Require Import ZArith List Bool Lia ZifyBool.
From OBB Require Import Gen.FakeTrxConst Model.Trx Proofs.TrxInv Proofs.TrxPower.
Import ListNotations.
Open Scope Z_scope.

(* two worlds with the same power state, wiring and clock distribution *)
Definition same_power (w w' : world) : Prop :=
  w_links w' = w_links w /\ w_gen w' = w_gen w /\ length (w_trx w') = length (w_trx w) /\
  forall k t', nth_error (w_trx w') k = Some t' -> exists t, nth_error (w_trx w) k = Some t /\ x_run t' = x_run t /\ x_cfg t' = x_cfg t.

Lemma same_power_refl w : same_power w w.
Proof. repeat split; auto. intros k t' H. exists t'. auto. Qed.
Lemma same_power_upd w i f : (forall t, x_run (f t) = x_run t /\ x_cfg (f t) = x_cfg t) -> same_power w (upd_trx w i f).
Proof.
  intros Hf. repeat split; [apply upd_trx_length|]. unfold upd_trx, set_trxs. cbn [w_trx].
  intros k t' H. rewrite upd_nth in H. destruct (Nat.eqb i k).
  - destruct (nth_error (w_trx w) k) as [t|]; [|discriminate]. cbn in H. injection H as <-. exists t. split; [reflexivity|apply Hf].
  - exists t'. auto.
Qed.

Lemma links_inv_same w w' : same_power w w' -> links_inv w -> links_inv w'.
Proof.
  intros [S1 [S2 [S3 S4]]] [Hn [Hl Hg]]. unfold links_inv. rewrite S1, S2. split; [exact Hn|]. split; [|exact Hg].
  intros k. rewrite Hl. split.
  - intros [t [Ht [Hr Hc]]]. assert (Hk : (k < length (w_trx w'))%nat) by (rewrite S3; apply nth_error_Some; congruence).
    destruct (nth_error (w_trx w') k) as [t'|] eqn:E; [|apply nth_error_None in E; lia]. exists t'. split; [reflexivity|].
    destruct (S4 k t' E) as [t0 [Ht0 [R C]]]. rewrite Ht in Ht0. injection Ht0 as <-. split; congruence.
  - intros [t' [Ht' [Hr Hc]]]. destruct (S4 k t' Ht') as [t0 [Ht0 [R C]]]. exists t0. repeat split; congruence.
Qed.
Lemma cfg_ok_same w w' : same_power w w' -> cfg_ok w -> cfg_ok w'.
Proof. intros [_ [_ [_ S4]]]. apply cfg_ok_mono. intros k u Hk. destruct (S4 k u Hk) as [u0 [H0 [_ C]]]. eauto. Qed.

(* parse_cmd touches the power state only through power_event (successful POWERON, any POWEROFF) *)
Lemma parse_cmd_power w i req draws :
  let '(w', r, _) := parse_cmd w i req draws in
  same_power w w' \/ (exists w1 on, same_power w w1 /\ w' = power_event w1 i on /\ r = CStatus 0 [] /\
                      (on = true -> exists t1, nth_error (w_trx w1) i = Some t1 /\ x_run t1 = false /\ ready t1 = true)).
Proof.
  destruct (nth_error (w_trx w) i) as [t|] eqn:Et; [|unfold parse_cmd; rewrite Et; left; apply same_power_refl].
  destruct (parse_cmd_outcome w i t req draws Et) as [r Hr|v d'|f rc ex _ Hf _|on Hon].
  - left. apply same_power_refl.
  - left. apply same_power_refl.
  - left. apply same_power_upd, Hf.
  - right. exists w, on. split; [apply same_power_refl|]. split; [reflexivity|]. split; [reflexivity|]. intros H. exists t. split; [exact Et|apply Hon, H].
Qed.

(* every control datagram, well formed or not, keeps: children never own clocks; clock indications go to exactly the clock links of
   running clock-owning transceivers (no duplicates); the generator runs iff there is at least one *)
Theorem handle_rx_links w i data draws : cfg_ok w -> links_inv w ->
  let '(w', _, _) := handle_rx w i data draws in cfg_ok w' /\ links_inv w'.
Proof.
  intros Hc Hl. unfold handle_rx.
  destruct (existsb _ _); [auto|]. destruct (negb _); [auto|].
  pose proof (parse_cmd_power w i (split_sp (strip is_nul (strip is_ws (skipn 4 (firstn (Z.to_nat ctrl_recv_size) data)))) []) draws) as H.
  destruct (parse_cmd w i _ draws) as [[w' r] d'].
  assert (G : cfg_ok w' /\ links_inv w').
  { destruct H as [S|[w1 [on [S [-> _]]]]].
    - split; [eapply cfg_ok_same; eassumption|eapply links_inv_same; eassumption].
    - split; [apply cfg_ok_power; eapply cfg_ok_same; eassumption|].
      apply links_inv_power; [eapply cfg_ok_same; eassumption|eapply links_inv_same; eassumption]. }
  destruct r; exact G.
Qed.

(* running = outcome of the last effective power event *)
Definition aff_cfg (c : cfg) (i : nat) : list nat := if c_mgt c && (c_idx c =? 0) then i :: c_children c else [i].
Definition eff_run (cfgs : list cfg) (r0 : bool) (hist : list (nat * bool)) (j : nat) : bool :=
  fold_left (fun r e => match nth_error cfgs (fst e) with
                        | Some c => if mem_nat j (aff_cfg c (fst e)) then snd e else r
                        | None => r end) hist r0.

Lemma power_events_run : forall hist w j t,
  nth_error (w_trx w) j = Some t ->
  exists t', nth_error (w_trx (fold_left (fun w e => power_event w (fst e) (snd e)) hist w)) j = Some t'
             /\ x_cfg t' = x_cfg t
             /\ x_run t' = eff_run (map x_cfg (w_trx w)) (x_run t) hist j
             /\ map x_cfg (w_trx (fold_left (fun w e => power_event w (fst e) (snd e)) hist w)) = map x_cfg (w_trx w).
Proof.
  induction hist as [|[i on] r IH]; intros w j t Ht; cbn [fold_left].
  - exists t. repeat split; auto.
  - cbn [fst snd]. pose proof (power_event_cfgs w i on) as Hcfg.
    assert (Hj : exists tj, nth_error (w_trx (power_event w i on)) j = Some tj /\ x_cfg tj = x_cfg t
                            /\ x_run tj = eff_run (map x_cfg (w_trx w)) (x_run t) [(i, on)] j).
    { unfold eff_run. cbn [fold_left fst snd]. rewrite nth_error_map.
      destruct (nth_error (w_trx w) i) as [ti|] eqn:Ei; cbn [option_map]; [|unfold power_event; rewrite Ei; eauto].
      rewrite (power_event_nth w i on ti j Ei), Ht. change (aff_cfg (x_cfg ti) i) with (affected ti i). destruct (mem_nat j (affected ti i)); cbn [option_map]; [|eauto].
      eexists. split; [reflexivity|]. split; apply power_one_fields. }
    destruct Hj as [tj [Hj [Cj Rj]]]. destruct (IH (power_event w i on) j tj Hj) as [t' [H1 [H2 [H3 H4]]]].
    exists t'. split; [exact H1|]. split; [congruence|]. split; [|congruence]. rewrite H3, Hcfg, Rj. reflexivity.
Qed.

(* documented port plan: transceiver with child index idx binds base+0 (clock, parent only) / base+2*idx+1 (control) / base+2*idx+2 (data)
   and talks to the same numbers + 100 *)
Definition port_ctrl (base idx : Z) : Z := base + 2 * idx + 1.
Definition port_data (base idx : Z) : Z := base + 2 * idx + 2.
Definition port_clck (base : Z) : Z := base.
Lemma ports_distinct base i j : 0 <= i -> 0 <= j ->
  port_ctrl base i <> port_data base j /\ port_clck base <> port_ctrl base i /\ port_clck base <> port_data base i
  /\ (i <> j -> port_ctrl base i <> port_ctrl base j /\ port_data base i <> port_data base j).
Proof. unfold port_ctrl, port_data, port_clck. lia. Qed.
