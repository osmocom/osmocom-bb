(* C08, GSM-time one-shot events (Model/SchedGsmtime.v): the active list stays sorted, the 16-slot pool is conserved, -EBUSY leaves
   everything untouched, an event requested for frame F is handed to tdma_schedule_set exactly once, by the sched_gsmtime_execute of
   frame F - 2 on the hyperframe clock (the look-ahead target is reduced modulo the hyperframe, so the frames 0 and 1 are reached),
   and its items then run in frame F - 1 + k (composition with the theorems about the TDMA scheduler). *)
From Coq Require Import ZArith List Bool Lia Permutation Sorted ZifyBool.
From OBB Require Import Gen.FwSchedConst Gen.FwGsmtimeConst Model.TdmaSched Model.SchedGsmtime Proofs.TdmaSchedSpec Proofs.TdmaSchedSortP Proofs.TdmaSchedP Proofs.TdmaSchedRefP Proofs.TdmaSchedHistP Proofs.TdmaSchedSpawnP.
Import ListNotations.
Open Scope Z_scope.

Definition gs_sorted (gs : gstate) : Prop := StronglySorted (fun a b => e_fn a <= e_fn b) (g_act gs).
(* every one of the 16 slots is on exactly one of the two lists, once *)
Definition gs_pool (gs : gstate) : Prop := Permutation (map e_slot (g_act gs) ++ g_inact gs) (seq 0 16).
Definition gs_ok (gs : gstate) : Prop := gs_sorted gs /\ gs_pool gs.

(* the walk of sched_gsmtime_execute without the TDMA scheduler: (active list afterwards, events handed over in order) *)
Fixpoint gwalk (tgt : Z) (l : list gev) : list gev * list gev :=
  match l with
  | [] => ([], [])
  | e :: r =>
    let keep := if e_fn e =? tgt then [] else [e] in
    let fire := if e_fn e =? tgt then [e] else [] in
    if e_fn e >? tgt then (keep ++ r, fire)
    else let '(a, f) := gwalk tgt r in (keep ++ a, fire ++ f)
  end.

(* handing events over = tdma_schedule_set(off, si, p3) for each, in order; the results are kept beside the events *)
Fixpoint hand_over (off : Z) (ts : sched) (evs : list gev) : res (sched * list (gev * Z)) :=
  match evs with
  | [] => Ok (ts, [])
  | e :: r =>
    match tdma_schedule_set ts off (e_si e) (e_p3 e) with
    | Ok (ts', rc) =>
      match hand_over off ts' r with
      | Ok (ts'', f) => Ok (ts'', (e, rc) :: f)
      | OOB => OOB
      | NullCall => NullCall
      end
    | OOB => OOB
    | NullCall => NullCall
    end
  end.

(* the event scheduler alone: state after a history and, per sched_gsmtime_execute, (fn, events handed over) *)
Definition gs_step (gs : gstate) (o : gop) : gstate * list (Z * list gev) :=
  match o with
  | GT _ => (gs, [])
  | GReq si fn p3 => (fst (sched_gsmtime gs si fn p3), [])
  | GExec fn =>
    ({| g_act := fst (gwalk (gexec_target fn) (g_act gs));
        g_inact := rev (map e_slot (snd (gwalk (gexec_target fn) (g_act gs)))) ++ g_inact gs |},
     [(fn, snd (gwalk (gexec_target fn) (g_act gs)))])
  | GReset => (sched_gsmtime_reset gs, [])
  end.

Fixpoint gs_run (gs : gstate) (ops : list gop) : gstate * list (Z * list gev) :=
  match ops with
  | [] => (gs, [])
  | o :: r => let '(gs1, l1) := gs_step gs o in let '(gs2, l2) := gs_run gs1 r in (gs2, l1 ++ l2)
  end.

(* what the TDMA scheduler sees of a combined history: each sched_gsmtime_execute is the tdma_schedule_set calls of the events it hands over *)
Fixpoint expand (gs : gstate) (ops : list gop) : list op :=
  match ops with
  | [] => []
  | o :: r =>
    (match o with
     | GT o' => [o']
     | GExec fn => map (fun e => OSet gexec_offset (e_si e) (e_p3 e)) (snd (gwalk (gexec_target fn) (g_act gs)))
     | _ => []
     end) ++ expand (fst (gs_step gs o)) r
  end.

Definition exec_fns (ops : list gop) : list Z := flat_map (fun o => match o with GExec fn => [fn] | _ => [] end) ops.

Lemma gexec_target_eq fn : gexec_target fn = ((fn + 2) mod 4294967296) mod 2715648.
Proof. reflexivity. Qed.

(* for the frame numbers l1_sync passes the uint32 addition does not wrap: the target is the frame two ahead on the hyperframe clock *)
Lemma target_clock fn : 0 <= fn < 2715648 -> gexec_target fn = (fn + 2) mod 2715648.
Proof. intros H. rewrite gexec_target_eq, (Z.mod_small (fn + 2) 4294967296) by lia. reflexivity. Qed.

Lemma target_range fn : 0 <= gexec_target fn < 2715648.
Proof. rewrite gexec_target_eq. apply Z.mod_pos_bound. reflexivity. Qed.

Lemma ins_sorted_split e : forall l, exists l1 l2, l = l1 ++ l2 /\ ins_sorted e l = l1 ++ e :: l2 /\
  Forall (fun c => e_fn c <= e_fn e) l1 /\ match l2 with [] => True | c :: _ => e_fn e < e_fn c end.
Proof.
  induction l as [|c r IH]; cbn [ins_sorted].
  - exists [], []. repeat split; constructor.
  - destruct (e_fn c >? e_fn e) eqn:E.
    + exists [], (c :: r). split; [reflexivity|]. split; [reflexivity|]. split; [constructor|lia].
    + destruct IH as (l1 & l2 & -> & E2 & F1 & H2). exists (c :: l1), l2. split; [reflexivity|]. rewrite E2. split; [reflexivity|].
      split; [constructor; [lia|exact F1]|exact H2].
Qed.

Lemma ins_sorted_perm e l : Permutation (ins_sorted e l) (e :: l).
Proof. destruct (ins_sorted_split e l) as (l1 & l2 & -> & -> & _). symmetry. apply Permutation_middle. Qed.

Lemma ins_sorted_sorted e : forall l, StronglySorted (fun a b => e_fn a <= e_fn b) l ->
  StronglySorted (fun a b => e_fn a <= e_fn b) (ins_sorted e l).
Proof.
  induction l as [|c r IH]; intros H; cbn [ins_sorted]; [repeat constructor|].
  apply StronglySorted_inv in H as (Hr & Hc).
  destruct (e_fn c >? e_fn e) eqn:E.
  - constructor; [constructor; assumption|]. constructor; [lia|]. eapply Forall_impl; [|exact Hc]. cbv beta. intros x Hx. lia.
  - constructor; [apply IH; exact Hr|]. eapply Permutation_Forall; [symmetry; apply ins_sorted_perm|]. constructor; [lia|exact Hc].
Qed.

Lemma gsmtime_ebusy gs si fn p3 : g_inact gs = [] -> sched_gsmtime gs si fn p3 = (gs, -16).
Proof. intros H. unfold sched_gsmtime. rewrite H. reflexivity. Qed.

Lemma gsmtime_accept gs si fn p3 s rest : g_inact gs = s :: rest ->
  sched_gsmtime gs si fn p3 =
    ({| g_act := ins_sorted {| e_slot := s; e_si := si; e_fn := fn; e_p3 := p3 |} (g_act gs); g_inact := rest |}, 0).
Proof. intros H. unfold sched_gsmtime. rewrite H. reflexivity. Qed.

Lemma gsmtime_ok gs si fn p3 : gs_ok gs -> gs_ok (fst (sched_gsmtime gs si fn p3)).
Proof.
  intros (Hs & Hp). unfold sched_gsmtime. destruct (g_inact gs) as [|s rest] eqn:E; cbn [fst]; [split; assumption|].
  split.
  - unfold gs_sorted. cbn [g_act]. apply ins_sorted_sorted. exact Hs.
  - unfold gs_pool in *. cbn [g_act g_inact]. rewrite E in Hp.
    rewrite (Permutation_map e_slot (ins_sorted_perm _ _)). cbn [map e_slot app].
    rewrite <- Hp. apply Permutation_middle.
Qed.

Lemma walk_split off : forall tgt l ts inact,
  gexec_walk tgt off l ts inact =
    match hand_over off ts (snd (gwalk tgt l)) with
    | Ok (ts', fired) => Ok (fst (gwalk tgt l), ts', rev (map e_slot (snd (gwalk tgt l))) ++ inact, fired)
    | OOB => OOB
    | NullCall => NullCall
    end.
Proof.
  intros tgt. induction l as [|e r IH]; intros ts inact; [reflexivity|]. cbn [gexec_walk gwalk].
  destruct (e_fn e =? tgt) eqn:Eq.
  - replace (e_fn e >? tgt) with false by lia.
    destruct (tdma_schedule_set ts off (e_si e) (e_p3 e)) as [[ts1 rc]| |] eqn:Es;
      rewrite ?IH; destruct (gwalk tgt r) as [a f]; cbn [fst snd app hand_over map rev]; rewrite Es; try reflexivity.
    destruct (hand_over off ts1 f) as [[ts2 f2]| |]; try reflexivity. rewrite <- app_assoc. reflexivity.
  - destruct (e_fn e >? tgt) eqn:Egt.
    + cbn [fst snd hand_over map rev app]. reflexivity.
    + rewrite IH. destruct (gwalk tgt r) as [a f]. cbn [fst snd app].
      destruct (hand_over off ts f) as [[ts2 f2]| |]; reflexivity.
Qed.

Lemma gwalk_fired_due tgt : forall l, Forall (fun e => e_fn e = tgt) (snd (gwalk tgt l)).
Proof.
  induction l as [|e r IH]; cbn [gwalk]; [constructor|].
  destruct (e_fn e >? tgt); [destruct (e_fn e =? tgt) eqn:E; cbn [snd]; repeat constructor; lia|].
  destruct (gwalk tgt r) as [a f]. cbn [snd] in *. destruct (e_fn e =? tgt) eqn:E; cbn [app]; [constructor; [lia|exact IH]|exact IH].
Qed.

Lemma gwalk_perm tgt : forall l, Permutation (fst (gwalk tgt l) ++ snd (gwalk tgt l)) l.
Proof.
  induction l as [|e r IH]; cbn [gwalk]; [constructor|].
  destruct (e_fn e >? tgt).
  - destruct (e_fn e =? tgt); cbn [fst snd app]; [|rewrite app_nil_r; reflexivity].
    rewrite Permutation_app_comm. reflexivity.
  - destruct (gwalk tgt r) as [a f]. cbn [fst snd] in *. destruct (e_fn e =? tgt); cbn [app].
    + rewrite <- IH. symmetry. apply Permutation_middle.
    + constructor. exact IH.
Qed.

Lemma filter_none {A} (f : A -> bool) l : Forall (fun x => f x = false) l -> filter f l = [] /\ filter (fun x => negb (f x)) l = l.
Proof.
  induction 1 as [|x r Hx _ (IH1 & IH2)]; [split; reflexivity|]. cbn [filter]. rewrite Hx. cbn [negb]. rewrite IH1, IH2. split; reflexivity.
Qed.

(* on a sorted list the early break loses nothing: exactly the events with fn = target are handed over, the others stay, in order *)
Lemma gwalk_sorted tgt : forall l, StronglySorted (fun a b => e_fn a <= e_fn b) l ->
  gwalk tgt l = (filter (fun e => negb (e_fn e =? tgt)) l, filter (fun e => e_fn e =? tgt) l).
Proof.
  induction l as [|e r IH]; intros H; [reflexivity|]. apply StronglySorted_inv in H as (Hr & He). cbn [gwalk filter].
  destruct (e_fn e >? tgt) eqn:Egt.
  - replace (e_fn e =? tgt) with false by lia. cbn [negb app].
    destruct (filter_none (fun x => e_fn x =? tgt) r) as (-> & ->); [|reflexivity].
    eapply Forall_impl; [|exact He]. cbv beta. intros x Hx. lia.
  - rewrite (IH Hr). destruct (e_fn e =? tgt); reflexivity.
Qed.

Lemma sorted_filter {A} (R : A -> A -> Prop) (f : A -> bool) : forall l, StronglySorted R l -> StronglySorted R (filter f l).
Proof.
  induction l as [|e r IH]; intros H; [constructor|]. apply StronglySorted_inv in H as (Hr & He). cbn [filter].
  destruct (f e); [|apply IH; exact Hr]. constructor; [apply IH; exact Hr|].
  apply Forall_forall. intros x Hx. apply filter_In in Hx as (Hx & _). rewrite Forall_forall in He. apply He. exact Hx.
Qed.

Lemma gs_step_ok gs o : gs_ok gs -> gs_ok (fst (gs_step gs o)).
Proof.
  intros Hok. pose proof Hok as (Hs & Hp). destruct o as [o'|si fn p3|fn|]; cbn [gs_step fst].
  - exact Hok.
  - apply gsmtime_ok. exact Hok.
  - split.
    + unfold gs_sorted. cbn [g_act]. rewrite (gwalk_sorted _ _ Hs). cbn [fst]. apply sorted_filter. exact Hs.
    + unfold gs_pool in *. cbn [g_act g_inact]. rewrite <- Hp, app_assoc, <- Permutation_rev, <- map_app, gwalk_perm. reflexivity.
  - split; [constructor|]. unfold gs_pool in *. cbn [sched_gsmtime_reset g_act g_inact map app]. rewrite <- Permutation_rev. exact Hp.
Qed.

Lemma gs_run_cons gs o r :
  gs_run gs (o :: r) = (fst (gs_run (fst (gs_step gs o)) r), snd (gs_step gs o) ++ snd (gs_run (fst (gs_step gs o)) r)).
Proof. cbn [gs_run]. destruct (gs_step gs o) as [gs1 l1]. cbn [fst snd]. destruct (gs_run gs1 r). reflexivity. Qed.

Lemma gs_run_ok : forall ops gs, gs_ok gs -> gs_ok (fst (gs_run gs ops)).
Proof.
  induction ops as [|o r IH]; intros gs H; [exact H|]. rewrite gs_run_cons. apply IH, gs_step_ok, H.
Qed.

Lemma gs_init_ok : gs_ok gs_init.
Proof.
  split; [constructor|]. unfold gs_pool, gs_init, sched_gsmtime_init, gs_zero. cbn [g_act g_inact map app].
  rewrite app_nil_r. change (Z.to_nat c_GSMTIME_NEVENTS) with 16%nat. symmetry. apply Permutation_rev.
Qed.

Lemma gs_pool_facts gs : gs_pool gs ->
  NoDup (map e_slot (g_act gs) ++ g_inact gs) /\ (length (g_act gs) + length (g_inact gs) = 16)%nat.
Proof.
  intros H. split; [eapply Permutation_NoDup; [symmetry; exact H|apply seq_NoDup]|].
  pose proof (Permutation_length H) as L. rewrite app_length, map_length, seq_length in L. exact L.
Qed.

(* the combined history: the event scheduler runs on its own, the TDMA scheduler sees tdma_schedule_set calls *)
Lemma hand_over_run rcf off : forall evs ts ts' fired, hand_over off ts evs = Ok (ts', fired) ->
  map fst fired = evs /\
  run_sp rcf ts (map (fun e => OSet off (e_si e) (e_p3 e)) evs) = (map (fun p => PRet (snd p)) fired, FOk ts').
Proof.
  induction evs as [|e r IH]; intros ts ts' fired H; cbn [hand_over] in H; [injection H as <- <-; split; reflexivity|].
  cbn [map run_sp step_sp].
  destruct (tdma_schedule_set ts off (e_si e) (e_p3 e)) as [[ts1 rc]| |]; try discriminate.
  destruct (hand_over off ts1 r) as [[ts2 f]| |] eqn:E; try discriminate. injection H as <- <-.
  destruct (IH _ _ _ E) as (Ef & Er). cbn [map fst]. rewrite Ef, Er. split; reflexivity.
Qed.

Lemma run_sp_app rcf : forall a ts oa ts1 b, run_sp rcf ts a = (oa, FOk ts1) ->
  run_sp rcf ts (a ++ b) = (oa ++ fst (run_sp rcf ts1 b), snd (run_sp rcf ts1 b)).
Proof.
  induction a as [|o r IH]; intros ts oa ts1 b H; cbn [run_sp app] in *.
  - injection H as <- <-. destruct (run_sp rcf ts b); reflexivity.
  - destruct (step_sp rcf ts o) as [[ts2 ob]| |]; try discriminate.
    destruct (run_sp rcf ts2 r) as [bs f] eqn:E. injection H as <- ->.
    rewrite (IH ts2 bs ts1 b E). reflexivity.
Qed.

Definition qlog (obs : list gobs) : list (list gev) :=
  flat_map (fun b => match b with QNum _ f => [map fst f] | _ => [] end) obs.

Lemma qlog_cons b bs : qlog (b :: bs) = qlog [b] ++ qlog bs.
Proof. unfold qlog. cbn [flat_map]. rewrite app_nil_r. reflexivity. Qed.

Lemma g_step_proj rcf ts gs o ts' gs' b : g_step rcf ts gs o = Ok (ts', gs', b) ->
  gs' = fst (gs_step gs o) /\ qlog [b] = map snd (snd (gs_step gs o)) /\
  exists os, run_sp rcf ts (expand gs [o]) = (os, FOk ts').
Proof.
  intros H. destruct o as [o'|si fn p3|fn|]; cbn [g_step gs_step expand fst snd] in *.
  - destruct (step_sp rcf ts o') as [[ts1 ob]| |] eqn:E; try discriminate. injection H as <- <- <-.
    split; [reflexivity|]. split; [reflexivity|]. cbn [app run_sp]. rewrite E. eexists. reflexivity.
  - destruct (sched_gsmtime gs si fn p3) as [gs1 r]. injection H as <- <- <-. split; [reflexivity|]. split; [reflexivity|]. eexists. reflexivity.
  - unfold sched_gsmtime_execute in H. rewrite walk_split in H.
    destruct (hand_over gexec_offset ts (snd (gwalk (gexec_target fn) (g_act gs)))) as [[ts1 fired]| |] eqn:E; try discriminate.
    injection H as <- <- <-. destruct (hand_over_run rcf _ _ _ _ _ E) as (Ef & Er). split; [reflexivity|]. split.
    + cbn [qlog flat_map map snd app]. rewrite Ef. reflexivity.
    + rewrite app_nil_r. eexists. exact Er.
  - injection H as <- <- <-. split; [reflexivity|]. split; [reflexivity|]. eexists. reflexivity.
Qed.

Lemma projection rcf : forall ops ts gs obs ts' gs', g_run rcf ts gs ops = (obs, GFOk ts' gs') ->
  gs' = fst (gs_run gs ops) /\ qlog obs = map snd (snd (gs_run gs ops)) /\
  exists os, run_sp rcf ts (expand gs ops) = (os, FOk ts').
Proof.
  induction ops as [|o r IH]; intros ts gs obs ts' gs' H.
  - cbn [g_run] in H. injection H as <- <- <-. split; [reflexivity|]. split; [reflexivity|]. eexists. reflexivity.
  - cbn [g_run] in H. destruct (g_step rcf ts gs o) as [[[ts1 gs1] b]| |] eqn:E; try discriminate.
    destruct (g_run rcf ts1 gs1 r) as [bs f] eqn:Er. injection H as <- ->.
    destruct (g_step_proj _ _ _ _ _ _ _ E) as (-> & Hq & os1 & R1).
    destruct (IH _ _ _ _ _ Er) as (-> & Hq2 & os2 & R2).
    rewrite gs_run_cons. cbn [fst snd]. split; [reflexivity|]. split.
    + rewrite qlog_cons, Hq, Hq2, map_app. reflexivity.
    + cbn [expand] in R1 |- *. rewrite app_nil_r in R1. rewrite (run_sp_app rcf _ _ _ _ _ R1), R2. eexists. reflexivity.
Qed.

Lemma slot_counts gs tgt s : gs_pool gs ->
  (count_occ Nat.eq_dec (map e_slot (fst (gwalk tgt (g_act gs)))) s + count_occ Nat.eq_dec (map e_slot (snd (gwalk tgt (g_act gs)))) s <= 1)%nat.
Proof.
  intros H. destruct (gs_pool_facts gs H) as (ND & _). rewrite (NoDup_count_occ Nat.eq_dec) in ND. specialize (ND s).
  rewrite count_occ_app in ND. rewrite <- count_occ_app, <- map_app.
  rewrite (proj1 (Permutation_count_occ Nat.eq_dec _ _) (Permutation_map e_slot (gwalk_perm tgt (g_act gs)))). lia.
Qed.

Lemma event_kept gs e o : gs_ok gs -> In e (g_act gs) -> o <> GReset ->
  (forall fn, o = GExec fn -> gexec_target fn <> e_fn e) ->
  In e (g_act (fst (gs_step gs o))) /\
  forall fn fired, In (fn, fired) (snd (gs_step gs o)) -> ~ In (e_slot e) (map e_slot fired).
Proof.
  intros (Hs & Hp) He Hnr Hfn. destruct o as [o'|si fn p3|fn|]; cbn [gs_step fst snd].
  - split; [exact He|intros ? ? []].
  - split; [|intros ? ? []]. unfold sched_gsmtime. destruct (g_inact gs) as [|s rest]; cbn [fst g_act]; [exact He|].
    apply (Permutation_in _ (Permutation_sym (ins_sorted_perm _ _))). right. exact He.
  - specialize (Hfn fn eq_refl). pose proof (slot_counts gs (gexec_target fn) (e_slot e) Hp) as C.
    rewrite (gwalk_sorted _ _ Hs) in *. cbn [fst snd g_act] in *.
    assert (Hk : In e (filter (fun x => negb (e_fn x =? gexec_target fn)) (g_act gs))) by (apply filter_In; split; [exact He|lia]).
    split; [exact Hk|]. intros fn' fired [E|[]]. injection E as _ <-.
    apply (in_map e_slot), (count_occ_In Nat.eq_dec) in Hk. apply (count_occ_not_In Nat.eq_dec). lia.
  - congruence.
Qed.

Lemma pending_through e : forall mid gs, gs_ok gs -> In e (g_act gs) -> ~ In GReset mid ->
  Forall (fun fn => gexec_target fn <> e_fn e) (exec_fns mid) ->
  In e (g_act (fst (gs_run gs mid))) /\ gs_ok (fst (gs_run gs mid)) /\
  forall fn fired, In (fn, fired) (snd (gs_run gs mid)) -> ~ In (e_slot e) (map e_slot fired).
Proof.
  induction mid as [|o r IH]; intros gs Hok He Hnr HF.
  - cbn [gs_run fst snd]. split; [exact He|]. split; [exact Hok|intros ? ? []].
  - unfold exec_fns in HF. cbn [flat_map] in HF. apply Forall_app in HF as (HF1 & HF2).
    assert (Hno : o <> GReset) by (intros ->; apply Hnr; left; reflexivity).
    assert (Hfn : forall fn, o = GExec fn -> gexec_target fn <> e_fn e) by (intros fn ->; inversion HF1; assumption).
    destruct (event_kept gs e o Hok He Hno Hfn) as (He1 & Hl1).
    destruct (IH _ (gs_step_ok gs o Hok) He1 ltac:(intros Hin; apply Hnr; right; exact Hin) HF2) as (He2 & Hok2 & Hl2).
    rewrite gs_run_cons. cbn [fst snd]. split; [exact He2|]. split; [exact Hok2|].
    intros fn fired Hin. apply in_app_or in Hin as [Hin|Hin]; [eapply Hl1|eapply Hl2]; eassumption.
Qed.

Lemma due_fires gs e fn : gs_ok gs -> In e (g_act gs) -> gexec_target fn = e_fn e ->
  let W := snd (gwalk (gexec_target fn) (g_act gs)) in
  In e W /\ count_occ Nat.eq_dec (map e_slot W) (e_slot e) = 1%nat /\ Forall (fun x => e_fn x = e_fn e) W /\
  ~ In e (g_act (fst (gs_step gs (GExec fn)))) /\ In (e_slot e) (g_inact (fst (gs_step gs (GExec fn)))).
Proof.
  intros (Hs & Hp) He Ht. cbn zeta. cbn [gs_step fst g_act g_inact]. rewrite (gwalk_sorted _ _ Hs). cbn [fst snd].
  assert (HinW : In e (filter (fun x => e_fn x =? gexec_target fn) (g_act gs))) by (apply filter_In; split; [exact He|lia]).
  split; [exact HinW|]. split.
  - pose proof (slot_counts gs (gexec_target fn) (e_slot e) Hp) as C. rewrite (gwalk_sorted _ _ Hs) in C. cbn [fst snd] in C.
    pose proof (proj1 (count_occ_In Nat.eq_dec _ _) (in_map e_slot _ _ HinW)) as Hin. lia.
  - split; [apply Forall_forall; intros x Hx; apply filter_In in Hx; lia|]. split.
    + intros Hin. apply filter_In in Hin. lia.
    + apply in_or_app. left. apply -> in_rev. apply in_map. exact HinW.
Qed.

Lemma fires_when_due gs s rest si F p3 mid fnx : gs_ok gs -> g_inact gs = s :: rest ->
  Forall (fun fn => gexec_target fn <> F) (exec_fns mid) -> ~ In GReset mid -> gexec_target fnx = F ->
  let e := {| e_slot := s; e_si := si; e_fn := F; e_p3 := p3 |} in
  let gs2 := fst (gs_run gs (GReq si F p3 :: mid)) in
  let W := snd (gwalk (gexec_target fnx) (g_act gs2)) in
  sched_gsmtime gs si F p3 = (fst (gs_step gs (GReq si F p3)), 0) /\
  (forall fn fired, In (fn, fired) (snd (gs_run gs (GReq si F p3 :: mid))) -> ~ In s (map e_slot fired)) /\
  gs_ok gs2 /\ In e (g_act gs2) /\
  In e W /\ count_occ Nat.eq_dec (map e_slot W) s = 1%nat /\ Forall (fun x => e_fn x = F) W /\
  ~ In e (g_act (fst (gs_step gs2 (GExec fnx)))) /\ In s (g_inact (fst (gs_step gs2 (GExec fnx)))).
Proof.
  intros Hok Hin Hfns Hnr Htx e gs2 W. subst gs2 W. rewrite gs_run_cons.
  pose proof (gsmtime_accept gs si F p3 s rest Hin) as Hacc.
  assert (He1 : In e (g_act (fst (gs_step gs (GReq si F p3))))).
  { cbn [gs_step fst]. rewrite Hacc. cbn [fst g_act]. apply (Permutation_in _ (Permutation_sym (ins_sorted_perm _ _))). left. reflexivity. }
  destruct (pending_through e mid _ (gs_step_ok gs (GReq si F p3) Hok) He1 Hnr Hfns) as (He2 & Hok2 & Hl2).
  split; [cbn [gs_step fst]; rewrite Hacc; reflexivity|]. split; [exact Hl2|]. split; [exact Hok2|]. split; [exact He2|].
  exact (due_fires _ e fnx Hok2 He2 Htx).
Qed.

(* the hyperframe clock: j consecutive frame numbers from t on, modulo 2715648 *)
Definition clock (t : Z) (j : nat) : list Z := map (fun i => (t + Z.of_nat i) mod 2715648) (seq 0 j).

Lemma clock_no_target t F j : 0 <= t < 2715648 -> 0 <= F < 2715648 -> Z.of_nat j = (F - 2 - t) mod 2715648 ->
  Forall (fun fn => gexec_target fn <> F) (clock t j) /\ gexec_target ((F - 2) mod 2715648) = F /\ (t + Z.of_nat j) mod 2715648 = (F - 2) mod 2715648.
Proof.
  intros Ht HF Hj. split; [|split].
  - unfold clock. apply Forall_forall. intros fn Hin. apply in_map_iff in Hin as (i & <- & Hi). apply in_seq in Hi.
    rewrite target_clock by (apply Z.mod_pos_bound; reflexivity). intros E.
    assert (Hi' : 0 <= Z.of_nat i < Z.of_nat j) by lia. clear Hi. revert E Hj Hi'. generalize (Z.of_nat i) (Z.of_nat j). intros x y E Hj Hx.
    Z.div_mod_to_equations. lia.
  - rewrite target_clock by (apply Z.mod_pos_bound; reflexivity). Z.div_mod_to_equations. lia.
  - Z.div_mod_to_equations. lia.
Qed.

Lemma ebusy_iff gs : gs_pool gs -> (g_inact gs = [] <-> length (g_act gs) = 16%nat).
Proof.
  intros H. destruct (gs_pool_facts gs H) as (_ & L). split; intros E.
  - rewrite E in L. cbn [length] in L. lia.
  - destruct (g_inact gs); [reflexivity|cbn [length] in L; lia].
Qed.

Lemma single_of (e : gev) (W : list gev) : (forall x, In x W -> x = e) -> NoDup (map e_slot W) -> In e W -> W = [e].
Proof.
  intros Hall ND Hin. destruct W as [|a [|b r]]; [destruct Hin| |].
  - rewrite (Hall a (or_introl eq_refl)). reflexivity.
  - exfalso. pose proof (Hall a (or_introl eq_refl)). pose proof (Hall b (or_intror (or_introl eq_refl))). subst a b.
    cbn [map] in ND. apply NoDup_cons_iff in ND as (Hn & _). apply Hn. left. reflexivity.
Qed.

Lemma handover_single ts gs e fn : gs_ok gs -> In e (g_act gs) -> gexec_target fn = e_fn e ->
  (forall x, In x (g_act gs) -> e_fn x = e_fn e -> x = e) ->
  sched_gsmtime_execute ts gs fn =
    match tdma_schedule_set ts 1 (e_si e) (e_p3 e) with
    | Ok (ts', rc) => Ok (ts', fst (gs_step gs (GExec fn)), 1, [(e, rc)])
    | OOB => OOB
    | NullCall => NullCall
    end.
Proof.
  intros Hok He Ht Hu. pose proof Hok as (Hs & Hp).
  destruct (due_fires gs e fn Hok He Ht) as (HinW & _ & HallW & _).
  assert (EW : snd (gwalk (gexec_target fn) (g_act gs)) = [e]).
  { apply single_of; [| |exact HinW].
    - intros x Hx. apply Hu; [|rewrite Forall_forall in HallW; apply HallW; exact Hx].
      rewrite (gwalk_sorted _ _ Hs) in Hx. cbn [snd] in Hx. apply filter_In in Hx. apply Hx.
    - apply (NoDup_count_occ Nat.eq_dec). intros s. pose proof (slot_counts gs (gexec_target fn) s Hp). lia. }
  unfold sched_gsmtime_execute. rewrite walk_split, EW. cbn [hand_over]. change gexec_offset with 1.
  destruct (tdma_schedule_set ts 1 (e_si e) (e_p3 e)) as [[ts1 rc]| |]; try reflexivity.
  cbn [gs_step fst]. rewrite EW. reflexivity.
Qed.

Lemma event_items_on_time rcf ts gs e fn plan ts' k idx it tail :
  wf ts -> cbs_ok ts -> all_st no16 ts -> (forall x, 0 <= rcf x) ->
  gs_ok gs -> In e (g_act gs) -> gexec_target fn = e_fn e -> (forall x, In x (g_act gs) -> e_fn x = e_fn e -> x = e) ->
  set_plan 0 (e_si e) (e_p3 e) = Some plan -> 1 + set_nframes (e_si e) < 25 -> Forall no16 (e_si e) ->
  tdma_schedule_set ts 1 (e_si e) (e_p3 e) = Ok (ts', set_nframes (e_si e)) ->
  0 <= k -> 1 + k < 25 -> nth_error (plan_frame plan k) idx = Some it ->
  let gs' := fst (gs_step gs (GExec fn)) in
  let mid := expand gs' tail in
  Forall op_ok mid -> Forall (all_op no16) mid -> advances mid = 1 + k -> ~ In OReset mid ->
  (forall a b, mid = a ++ OExecute :: b -> advances a < 1 + k) ->
  sched_gsmtime_execute ts gs fn = Ok (ts', gs', 1, [(e, set_nframes (e_si e))]) /\
  exists os s3 s4 lg extra,
    run_sp rcf ts' mid = (os, FOk s3) /\
    nth_error (bucket_due s3 0) (length (bucket_due ts (1 + k)) + idx)%nat = Some it /\
    tdma_sched_execute_sp rcf s3 = SXOk s4 lg (Z.of_nat (length (bucket_due s3 0) + length extra)) /\
    calls lg = exec_order (bucket_due s3 0) ++ extra /\ Forall childlike extra /\
    count_occ Nat.eq_dec (slot_order (bucket_due s3 0)) (length (bucket_due ts (1 + k)) + idx)%nat = 1%nat /\
    bucket_due s4 0 = [].
Proof.
  intros Hwf Hcb Hno Hr Hok He Ht Hu Hp Hnf Hs16 Eset Hk0 Hk Hit gs' mid HF HF16 Hadv Hnr Hex.
  split. { rewrite (handover_single ts gs e fn Hok He Ht Hu), Eset. reflexivity. }
  destruct (set_ext ts 1 (e_si e) (e_p3 e) plan Hwf ltac:(lia) Hnf Hp) as (ts1 & rc & E2 & W1 & _ & K1 & _).
  rewrite Eset in E2. injection E2 as <- _. specialize (K1 Hcb).
  assert (N1 : all_st no16 ts').
  { unfold tdma_schedule_set in Eset. eapply (sched_set_all no16); [|exact Hno|exact Hs16|exact Eset]. intros x Hx. exact Hx. }
  destruct (set_offsets ts 1 (e_si e) (e_p3 e) plan Hwf ltac:(lia) Hnf Hp) as (_ & Hplace).
  destruct (Hplace ts' Eset) as (_ & Hd).
  assert (Hh : nth_error (bucket_due ts' (1 + k)) (length (bucket_due ts (1 + k)) + idx)%nat = Some it).
  { rewrite (Hd (1 + k) ltac:(lia)). rewrite nth_error_app2 by lia.
    replace (length (bucket_due ts (1 + k)) + idx - length (bucket_due ts (1 + k)))%nat with idx by lia.
    replace (1 + k - 1) with k by lia. exact Hit. }
  exact (held_runs_on_time rcf ts' (1 + k) _ it mid W1 K1 N1 Hr ltac:(lia) Hh HF HF16 Hadv Hnr Hex).
Qed.

(* n frame interrupts as l1_sync() does them, the frame number counting modulo the hyperframe *)
Fixpoint frames (n : nat) (fn : Z) : list gop :=
  match n with
  | O => []
  | S m => GT OExecute :: GExec fn :: GT OAdvance :: frames m ((fn + 1) mod 2715648)
  end.

Lemma frames_no_reset : forall n fn, ~ In GReset (frames n fn).
Proof. induction n as [|n IH]; intros fn; cbn [frames In]; [tauto|]. intros [H|[H|[H|H]]]; try discriminate. exact (IH _ H). Qed.

Definition ex_set_b : list item := [ex_item 3 3 33 0 0; ex_item 0 0 0 0 0; ex_item 1 0 0 0 0].
Definition ex_set_a : list item := [ex_item 2 1 11 0 0; ex_item 0 0 0 0 0; ex_item 4 2 22 0 0; ex_item 0 0 0 0 0; ex_item 1 0 0 0 0].

(* what ran in which frame interrupt (index from 0), empty interrupts dropped *)
Fixpoint ran (i : Z) (obs : list gobs) : list (Z * list item) :=
  match obs with
  | [] => []
  | QT (PExec lg _) :: r => (match calls lg with [] => [] | c => [(i, c)] end) ++ ran (i + 1) r
  | _ :: r => ran i r
  end.

(* non-vacuity across the wrap: frame 2715640, events requested for the frames 0, 1, 2 and 2715647 of the clock (8, 9, 10, 7 frames
   ahead): handed over by the executes of the frames 2715646, 2715647, 0, 2715645 (interrupts 6, 7, 8, 5), their items run one interrupt
   later (frame F - 1); a STALE request (frame 2715639, already passed) is still pending after these 40 interrupts and keeps its slot:
   it fires when the clock comes round, a hyperframe later *)
Example ex_gsm_wrap :
  match g_run ex_rcf (init 7) gs_init
          (GReq ex_set_b 0 70 :: GReq ex_set_b 1 71 :: GReq ex_set_b 2 72 :: GReq ex_set_b 2715647 73 :: GReq ex_set_b 2715639 74 :: frames 40 2715640) with
  | (obs, GFOk ts gs) => (ran 0 obs, map (map e_fn) (firstn 10 (qlog obs)), map e_fn (g_act gs), length (g_inact gs))
  | _ => ([], [], [], O)
  end = ([(6, [ex_item 3 3 33 73 0]); (7, [ex_item 3 3 33 70 0]); (8, [ex_item 3 3 33 71 0]); (9, [ex_item 3 3 33 72 0])],
         [[]; []; []; []; []; [2715647]; [0]; [1]; [2]; []], [2715639], 15%nat).
Proof. vm_compute. reflexivity. Qed.

Example ex_gsm_wrap_hypotheses :
  gs_ok gs_init /\ g_inact gs_init = 15%nat :: rev (seq 0 15) /\ Z.of_nat 6 = (0 - 2 - 2715640) mod 2715648 /\
  exec_fns (frames 6 2715640) = clock 2715640 6 /\ ~ In GReset (frames 6 2715640) /\ (0 - 2) mod 2715648 = 2715646.
Proof.
  split; [exact gs_init_ok|]. split; [reflexivity|]. split; [reflexivity|]. split; [reflexivity|]. split; [apply frames_no_reset|reflexivity].
Qed.

(* non-vacuity: requests in descending frame order (230, then 220, then one more for 230), 35 frame interrupts from frame 200 *)
Example ex_gsm_descending :
  match g_run ex_rcf (init 23) gs_init
          (GReq ex_set_a 230 771 :: GReq ex_set_b 220 772 :: GReq ex_set_b 230 773 :: frames 35 200) with
  | (obs, GFOk ts gs) => (ran 0 obs, map e_fn (g_act gs), g_inact gs)
  | _ => ([], [], [])
  end = ([(19, [ex_item 3 3 33 772 0]);                                (* frame 219 = 220 - 1 *)
          (29, [ex_item 2 1 11 771 0; ex_item 3 3 33 773 0]);          (* frame 229: both events for 230, request order *)
          (30, [ex_item 4 2 22 771 0])],                               (* frame 230: second frame of set a *)
         [], [13; 15; 14; 12; 11; 10; 9; 8; 7; 6; 5; 4; 3; 2; 1; 0]%nat).
Proof. vm_compute. reflexivity. Qed.

Example ex_gsm_on_time_hypotheses :
  gs_ok gs_init /\ g_inact gs_init = 15%nat :: rev (seq 0 15) /\ Z.of_nat 28 = (230 - 2 - 200) mod 2715648 /\
  exec_fns (GReq ex_set_b 220 772 :: frames 28 200) = clock 200 28 /\ ~ In GReset (GReq ex_set_b 220 772 :: frames 28 200).
Proof.
  split; [exact gs_init_ok|]. split; [reflexivity|]. split; [reflexivity|]. split; [reflexivity|].
  intros [H|H]; [discriminate|exact (frames_no_reset _ _ H)].
Qed.

(* 17 requests: the 17th answers -EBUSY and changes nothing *)
Example ex_gsm_ebusy :
  let gs16 := fst (gs_run gs_init (map (fun i => GReq ex_set_b (100 + Z.of_nat i) 5) (seq 0 16))) in
  (length (g_act gs16), g_inact gs16, sched_gsmtime gs16 ex_set_b 50 5) = (16%nat, [], (gs16, -16)).
Proof. vm_compute. reflexivity. Qed.
