(* C17: statements about the reflected definitions (Gen/TrxdProto.v) at the Envelope API: layout and round trip of every
   typed message, burst length by modulation, NOPE, reserved bits, wrong version. *)
From Coq Require Import ZArith List Bool Lia.
From OBB Require Import Gen.TrxdProto Base.Bits Model.Codec Proofs.CodecInt Proofs.CodecBits Proofs.CodecRT Proofs.CodecDE
  Proofs.CodecErr Proofs.CodecGood Proofs.CodecSem Proofs.TrxdProtoSpec Proofs.TrxdProtoBits Proofs.TrxdProtoMsg.
Import ListNotations.
Open Scope Z_scope.

Definition accepts (pdu:list field) (e:env) (b:list Z) : Prop :=
  encode pdu e = Ok b /\ decode true pdu b = Ok (e, length b) /\ decode false pdu b = Ok (e, length b).

Lemma accepts_of_good pdu spec e b : reflects pdu spec -> good spec e [] 0 e b -> NoDup (keys e) -> accepts pdu e b.
Proof. intros [E Hin] Hg Hnd. apply good_top; [rewrite E; exact Hg|exact Hnd|apply (pdu_wf _ Hin)]. Qed.

Definition pdu_tx (ver:Z) : list field := if ver =? 0 then pdu_v0_tx else pdu_v1_tx.

Lemma tx_accepts v tn fn pwr bits : v = 0 \/ v = 1 -> 0 <= tn < 8 -> 0 <= fn < 4294967296 -> 0 <= pwr < 256 ->
  accepts (pdu_tx v) (tx_fields v tn fn pwr bits) (tx_layout v tn fn pwr bits).
Proof.
  intros Hv Ht Hf Hp. assert (Hr : reflects (pdu_tx v) (spec_v01_tx v)) by (destruct Hv as [-> | ->]; [apply v0tx_reflects|apply v1tx_reflects]).
  apply (accepts_of_good _ _ _ _ Hr); [|apply nodupb_sound; reflexivity].
  apply good_hdr01; [lia|lia|reflexivity|].
  apply good_leaf; [apply u32be_leaf, Hf|reflexivity|]. apply good_leaf1; [apply u8_leaf, Hp|reflexivity|].
  apply good_rest. reflexivity.
Qed.
(* PDUv0Rx: the soft-bit length rule of the source must answer |sb| when |sb| + |pad| octets are left *)
Lemma rx0_accepts tn fn rssi toa sb pad : 0 <= tn < 8 -> 0 <= fn < 4294967296 -> -255 <= rssi <= 0 -> -32768 <= toa < 32768 ->
  rule_at (length sb + length pad) = Ok (length sb) ->
  accepts pdu_v0_rx (rx0_fields tn fn rssi toa sb pad) (rx0_layout tn fn rssi toa sb pad).
Proof.
  intros Ht Hf Hr Ha Hrule. apply (accepts_of_good _ _ _ _ v0rx_reflects); [|apply nodupb_sound; reflexivity].
  apply good_hdr01; [lia|lia|reflexivity|].
  apply good_leaf; [apply u32be_leaf, Hf|reflexivity|]. apply good_leaf1; [apply rssi_leaf, Hr|reflexivity|].
  apply good_leaf; [apply i16be_leaf, Ha|reflexivity|].
  apply good_buf; [reflexivity|reflexivity|reflexivity|rewrite Nat.add_0_r; exact Hrule|].
  apply good_rest. reflexivity.
Qed.
Lemma rx1_accepts tn fn rssi toa np md tc cir sb : 0 <= tn < 8 -> 0 <= fn < 4294967296 -> -255 <= rssi <= 0 -> -32768 <= toa < 32768 ->
  0 <= md < 16 -> 0 <= tc < 8 -> -32768 <= cir < 32768 -> burst_ok np md sb ->
  accepts pdu_v1_rx (rx1_fields tn fn rssi toa np md tc cir sb) (rx1_layout tn fn rssi toa np md tc cir sb).
Proof.
  intros Ht Hf Hr Ha Hm Hc Hi Hb. pose proof (nope_range _ _ _ Hb) as Hn. apply (accepts_of_good _ _ _ _ v1rx_reflects).
  - apply good_hdr01; [lia|lia|reflexivity|].
    apply good_leaf; [apply u32be_leaf, Hf|reflexivity|]. apply good_leaf1; [apply rssi_leaf, Hr|reflexivity|].
    apply good_leaf; [apply i16be_leaf, Ha|reflexivity|]. apply good_mts; [lia|lia|lia|reflexivity|reflexivity|reflexivity|].
    apply good_leaf; [apply i16be_leaf, Hi|reflexivity|].
    apply good_last, (good_burst 5 np md sb); [exact Hb|reflexivity|reflexivity|reflexivity| |apply good_nil].
    intros ->. reflexivity.
  - unfold rx1_fields. rewrite <- (app_nil_r (burst_entry _ _ _)). apply burst_entry_nodup. reflexivity.
Qed.
(* TRXDv2, any number of batched sub-PDUs *)
Lemma rx2_accepts m : rx2_ok m -> accepts pdu_v2_rx (rx2_fields m) (rx2_layout m).
Proof.
  intros [Ht [Hba [Htr [Hm [Hc [Hr [Ha [Hi [Hf [Hb Hsubs]]]]]]]]]]. pose proof (nope_range _ _ _ Hb) as Hn.
  apply (accepts_of_good _ _ _ _ v2rx_reflects); [|apply burst_entry_nodup; reflexivity].
  apply good_hdr2; [lia|lia|lia|reflexivity|reflexivity|reflexivity|].
  apply good_mts; [lia|lia|lia|reflexivity|reflexivity|reflexivity|].
  apply good_leaf1; [apply rssi_leaf, Hr|reflexivity|]. apply good_leaf; [apply i16be_leaf, Ha|reflexivity|].
  apply good_leaf; [apply i16be_leaf, Hi|reflexivity|]. apply good_leaf; [apply u32be_leaf, Hf|reflexivity|].
  apply (good_burst 5 _ (m_mod m)); [exact Hb|reflexivity|reflexivity|reflexivity|intros E; unfold rx2_fields; rewrite E; reflexivity|].
  eapply good_last, good_seq; [reflexivity|reflexivity|unfold rx2_fields, burst_entry; destruct (m_nope m =? 0); reflexivity| | |apply good_nil].
  - apply (subs_good _ rxsub_fields rxsub_layout rxsub_ok); [intros s R; apply rxsub_good|apply rxsub_nodup|apply rxsub_len|exact Hsubs].
  - cbn [get_len length]. f_equal. lia.
Qed.
Lemma tx2_accepts m : tx2_ok m -> accepts pdu_v2_tx (tx2_fields m) (tx2_layout m).
Proof.
  intros [Ht [Hba [Htr [Hm [Hc [Hp [Hs [Hf [Hb Hsubs]]]]]]]]]. pose proof (nope_range _ _ _ Hb) as Hn.
  apply (accepts_of_good _ _ _ _ v2tx_reflects); [|apply burst_entry_nodup; reflexivity].
  apply good_hdr2; [lia|lia|lia|reflexivity|reflexivity|reflexivity|].
  apply good_mts; [lia|lia|lia|reflexivity|reflexivity|reflexivity|].
  apply good_leaf1; [apply u8_leaf, Hp|reflexivity|]. apply good_leaf1; [apply i8_leaf, Hs|reflexivity|]. apply (good_spare 2).
  apply good_leaf; [apply u32be_leaf, Hf|reflexivity|].
  apply (good_burst 8 _ (x_mod m)); [exact Hb|reflexivity|reflexivity|reflexivity|intros E; unfold tx2_fields; rewrite E; reflexivity|].
  eapply good_last, good_seq; [reflexivity|reflexivity|unfold tx2_fields, burst_entry; destruct (x_nope m =? 0); reflexivity| | |apply good_nil].
  - apply (subs_good _ txsub_fields txsub_layout txsub_ok); [intros s R; apply txsub_good|apply txsub_nodup|apply txsub_len|exact Hsubs].
  - cbn [get_len length]. f_equal. lia.
Qed.

(* C16 instantiated: whatever decodes re-encodes *)
Lemma pdu_roundtrip pdu data v n : In pdu all_pdus -> bytes_ok data -> decode true pdu data = Ok (v, n) ->
  n = length data /\ exists b', encode pdu v = Ok b' /\ length b' = n /\ decode true pdu b' = Ok (v, n).
Proof.
  intros Hin Ho Hd. destruct (pdu_wf _ Hin) as [Hwf _]. pose proof (decode_true_len _ _ _ _ Hd) as Hn. split; [exact Hn|].
  destruct (dec_enc_top true pdu data v n Hwf Ho Hd) as [_ [_ [_ [b' [H1 [H2 H3]]]]]]. exists b'. split; [exact H1|]. split; [exact H2|].
  rewrite Hn, skipn_all, app_nil_r in H3. rewrite Hn. exact H3.
Qed.

Lemma pdu_closed chk pdu data : In pdu all_pdus ->
  (exists r, decode chk pdu data = Ok r) \/ (exists c, decode chk pdu data = DecodeErr c).
Proof.
  intros Hin. destruct (pdu_wf _ Hin) as [_ [Hpo Hso]]. pose proof (decode_closed chk pdu data) as Hc.
  pose proof (decode_terminates chk pdu data Hso) as Ht.
  destruct (decode chk pdu data) as [r|c|c| |c]; cbn [dec_result_ok] in Hc; eauto; try contradiction. destruct Hc; congruence.
Qed.

(* 8 for a definition with the field names of PDUv2Tx, 5 otherwise: the two names of c17_burst_len_by_mod; no statement uses it *)
Definition burst_name (pdu:list field) : option nat :=
  if list_eq_dec Nat.eq_dec (lnames pdu) (lnames pdu_v2_tx) then Some 8%nat else Some 5%nat.

Definition has_burst (nm:nat) (pdu:list field) : Prop := In pdu all_pdus /\ In (burst nm) pdu.
Lemma burst_v1rx : has_burst n_soft_bits pdu_v1_rx.
Proof. exact (conj (proj2 v1rx_reflects) (nth_error_In pdu_v1_rx 6 eq_refl)). Qed.
Lemma burst_v2rx : has_burst n_soft_bits pdu_v2_rx.
Proof. exact (conj (proj2 v2rx_reflects) (nth_error_In pdu_v2_rx 6 eq_refl)). Qed.
Lemma burst_v2tx : has_burst n_hard_bits pdu_v2_tx.
Proof. exact (conj (proj2 v2tx_reflects) (nth_error_In pdu_v2_tx 6 eq_refl)). Qed.

(* any accepted datagram with NOPE = 0 carries a burst whose length is the table entry of its MOD bits *)
Lemma burst_len_sem pdu nm data v n : has_burst nm pdu -> bytes_ok data ->
  decode true pdu data = Ok (v, n) -> lookup n_nope v = Some (VInt 0) ->
  exists md bits, lookup n_mod v = Some (VInt md) /\ lookup nm v = Some (VBytes bits) /\ assocZ md burst_tab = Some (length bits).
Proof.
  intros [Hin Hb] Ho Hd Hn. destruct (pdu_wf _ Hin) as [Hwf _].
  destruct (dec_enc_top true pdu data v n Hwf Ho Hd) as [_ [Hfit _]].
  assert (Hp : get_pres (PTab 9 [(0, true); (1, false)]) v = Ok true) by (apply (tab_pres _ _ _ 0 true Hn); reflexivity).
  destruct (fits_buf_in _ _ _ _ _ _ Hfit nm _ _ Hb Hp) as [bb [pre [post [L [H1 [H2 H3]]]]]].
  cbn [app] in H3. apply tab_len_inv in H3 as [z [Hz1 Hz2]]. exists z, bb. split; [|split; assumption].
  unfold n_mod. rewrite H2, lookup_app, Hz1. reflexivity.
Qed.

(* ... and with NOPE = 1 it carries no burst field at all *)
Lemma nope_no_burst_sem pdu nm data v n : has_burst nm pdu -> bytes_ok data ->
  decode true pdu data = Ok (v, n) -> lookup n_nope v = Some (VInt 1) -> lookup nm v = None.
Proof.
  intros [Hin Hb] Ho Hd Hn. destruct (pdu_wf _ Hin) as [Hwf _].
  destruct (dec_enc_top true pdu data v n Hwf Ho Hd) as [_ [Hfit _]].
  apply lookup_none_keys. intros Hk. destruct (fits_keys _ _ _ _ _ _ Hfit nm Hk) as [f [Hf1 [Hf2 Hf3]]].
  rewrite (names_uniq pdu f (burst nm) nm (proj1 (wfb_inv _ Hwf)) Hf1 Hb Hf2 (or_introl eq_refl)) in Hf3. cbn [fpres burst] in Hf3.
  rewrite (tab_pres _ _ _ 1 false Hn) in Hf3 by reflexivity. discriminate.
Qed.
Lemma wrong_version01 chk v pdu fs h rest : reflects pdu (hdr01 v :: fs) ->
  Z.land (Z.shiftr h 4) 15 <> v -> decode chk pdu (h :: rest) = DecodeErr 0.
Proof.
  intros [E Hin] Hne. pose proof (proj1 (proj2 (pdu_wf _ Hin))) as Hpo. rewrite E in *. unfold hdr01 in *.
  apply (fixed_mismatch chk (LFix 1) false (hdr01_bits v) fs (h :: rest) 0%nat 4%nat v 4 15); [exact Hpo|cbn; lia|left; reflexivity|].
  change (firstn (bits_len (LFix 1) (hdr01_bits v)) (h :: rest)) with [h]. rewrite from_be1. exact Hne.
Qed.
Lemma wrong_version2 chk pdu fs h h2 rest : 0 <= h2 < 256 -> reflects pdu (hdr2 :: fs) ->
  Z.land (Z.shiftr h 4) 15 <> 2 -> decode chk pdu (h :: h2 :: rest) = DecodeErr 0.
Proof.
  intros H2 [E Hin] Hne. pose proof (proj1 (proj2 (pdu_wf _ Hin))) as Hpo. rewrite E in *. unfold hdr2 in *.
  apply (fixed_mismatch chk (LFix 2) false hdr2_bits fs (h :: h2 :: rest) 0%nat 4%nat 2 12 15); [exact Hpo|cbn; lia|left; reflexivity|].
  change (firstn (bits_len (LFix 2) hdr2_bits) (h :: h2 :: rest)) with [h; h2]. rewrite from_be2, (window_hi h h2 8 12) by lia. exact Hne.
Qed.

(* sent as zero: the layouts have 0 in the reserved positions *)
Lemma reserved_zero v tn ba tr : 0 <= tn < 8 -> 0 <= tr < 64 ->
  Z.land (v * 16 + tn) 8 = 0 /\ Z.land (ba * 128 + tr) 64 = 0 /\ Z.land tn 248 = 0.
Proof.
  intros Ht Hr. split; [|split].
  - rewrite (land_concat_lo v tn 4) by lia. apply (land_mul_pow2 tn 1 3). lia.
  - rewrite (land_concat_lo ba tr 7) by lia. apply (land_mul_pow2 tr 1 6). lia.
  - apply (land_mul_pow2 tn 31 3). lia.
Qed.

(* TRXDv0/v1: the RFU bit of the header octet does not influence the decoder *)
Lemma rfu_ignored01 chk v pdu fs h rest : reflects pdu (hdr01 v :: fs) ->
  decode chk pdu (Z.lor h 8 :: rest) = decode chk pdu (h :: rest).
Proof.
  intros [-> _]. unfold decode. destruct (proto_ok (hdr01 v :: fs)); [|reflexivity].
  unfold dec_fuel, hdr01. cbn [length dec]. rewrite !dec_field_bits by (cbn; lia). cbn [bits_len firstn]. rewrite !from_be1.
  rewrite (dec_bits_ext _ (Z.lor h 8) h); [destruct (dec_bits _ h []); reflexivity|].
  repeat constructor; cbn [same_window].
  - apply (window_lor_bit h 3 4 4); lia.
  - apply (window_lor_bit h 3 0 3); lia.
Qed.

(* TRXDv2 header: RFU bit 3 of the first octet and RFU bit 6 of the second; every field lies within one of the octets *)
Lemma rfu_ignored2 chk pdu fs h h2 rest : 0 <= h2 < 256 -> reflects pdu (hdr2 :: fs) ->
  decode chk pdu (Z.lor h 8 :: Z.lor h2 64 :: rest) = decode chk pdu (h :: h2 :: rest).
Proof.
  intros Hh2 [-> _]. unfold decode. destruct (proto_ok (hdr2 :: fs)); [|reflexivity].
  unfold dec_fuel, hdr2. cbn [length dec]. rewrite !dec_field_bits by (cbn; lia). cbn [bits_len firstn]. rewrite !from_be2.
  rewrite (dec_bits_ext _ (Z.lor h 8 * 256 + Z.lor h2 64) (h * 256 + h2)); [destruct (dec_bits _ (h * 256 + h2) []); reflexivity|].
  assert (H64 : 0 <= Z.lor h2 64 < 2 ^ 8) by (apply lor_lt; lia).
  repeat constructor; cbn [same_window].
  - rewrite !(window_hi _ _ 8 12) by lia. apply (window_lor_bit h 3 4 4); lia.
  - rewrite !(window_hi _ _ 8 8) by lia. apply (window_lor_bit h 3 0 3); lia.
  - rewrite !(window_lo _ _ 8 7 1) by lia. apply (window_lor_bit h2 6 7 1); lia.
  - rewrite !(window_lo _ _ 8 0 6) by lia. apply (window_lor_bit h2 6 0 6); lia.
Qed.

(* batched sub-PDU: the five RFU bits of its first octet, and the three spare octets of a Tx (sub-)PDU, are not looked at *)
Lemma sub_rfu_ignored recd recs e h h' h2 rest : 0 <= h2 < 256 -> Z.land h 7 = Z.land h' 7 ->
  dec_field recd recs hdr2b e (h' :: h2 :: rest) = dec_field recd recs hdr2b e (h :: h2 :: rest).
Proof.
  intros Hh2 E. unfold hdr2b. rewrite !dec_field_bits by (cbn; lia). cbn [bits_len firstn].
  rewrite !from_be2, (hdr2b_dec_ext h h') by assumption. reflexivity.
Qed.

Lemma spare_octets_ignored recd recs e a b c rest :
  dec_field recd recs (FSpare (LFix 3) PAlways 0) e (a :: b :: c :: rest) = Ok (e, 3%nat).
Proof. reflexivity. Qed.
