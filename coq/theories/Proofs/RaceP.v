(* C03: all interleavings of one socket-side operation with one clock tick *)
From Coq Require Import ZArith List Bool Lia.
From OBB Require Import Model.Race.
Import ListNotations.
Open Scope Z_scope.

Definition msg_dec : forall a b : msg, {a = b} + {a <> b}.
Proof. decide equality; apply Z.eq_dec. Defined.
Notation cnt := (count_occ msg_dec).

(* bursts the clock thread holds in local variables (taken out of the queue, not yet emitted / logged), or lost in a crash *)
Definition local (s : st) : list msg :=
  match tpc s with TK2u e d | TK3 e d => e ++ d | TCrash l => l | _ => [] end.

(* no burst is ever duplicated or silently lost: multiset equation, for every burst x *)
Definition Inv (s : st) : Prop :=
  forall x, cnt (accepted s) x = (cnt (queue s) x + cnt (local s) x + cnt (emitted s) x + cnt (stale s) x + cnt (cleared s) x)%nat.

Lemma part_cnt f q x : let '(d, e, w) := part f q in cnt q x = (cnt d x + cnt e x + cnt w x)%nat.
Proof.
  induction q as [|m r IH]; cbn [part]; [reflexivity|]. destruct (part f r) as [[d e] w].
  destruct (delta (snd m) f =? 0); [|destruct (delta (snd m) f <? HF / 2)]; cbn [count_occ]; destruct (msg_dec m x); lia.
Qed.

Lemma tick_inv f s : Inv s -> Inv (tick_step f s).
Proof.
  unfold Inv, tick_step, local. intros H x. specialize (H x).
  destruct (tpc s) as [| | |e d|e d| |l] eqn:E.
  - cbn. exact H.
  - destruct (running s); cbn; exact H.
  - (* TK2: the partition under the lock *)
    pose proof (part_cnt f (queue s) x) as P. destruct (part f (queue s)) as [[d e] w].
    cbn in *; rewrite ?count_occ_app in *; lia.
  - destruct e as [|m e]; cbn in *; rewrite ?count_occ_app in *; cbn [count_occ] in *; try destruct (msg_dec m x); lia.
  - destruct e as [|m rest]; [cbn in *; rewrite ?count_occ_app in *; lia|].
    unfold after_fwd. destruct rest as [|m2 r2]; cbn in *; rewrite ?count_occ_app in *; cbn [count_occ] in *;
      destruct (msg_dec m x); try destruct (msg_dec m2 x); lia.
  - rewrite E. exact H.
  - rewrite E. exact H.
Qed.

(* only SA2 (burst appended to queue and accepted) and SP2 (queue moved to cleared) touch a counted list *)
Lemma sock_step_lists op s : let s' := sock_step op s in
  tpc s' = tpc s /\ emitted s' = emitted s /\ stale s' = stale s /\
  ((accepted s' = accepted s /\ queue s' = queue s /\ cleared s' = cleared s)
   \/ (exists m, accepted s' = accepted s ++ [m] /\ queue s' = queue s ++ [m] /\ cleared s' = cleared s)
   \/ (accepted s' = accepted s /\ queue s' = [] /\ cleared s' = cleared s ++ queue s)).
Proof.
  unfold sock_step. destruct (spc s);
    repeat match goal with
    | |- context [match op with _ => _ end] => destruct op
    | |- context [if ?b then _ else _] => destruct b
    end; cbn; repeat split; eauto 10.
Qed.

Lemma sock_inv op s : Inv s -> Inv (sock_step op s).
Proof.
  unfold Inv, local. intros H x. specialize (H x).
  destruct (sock_step_lists op s) as [-> [-> [-> [[-> [-> ->]]|[[m [-> [-> ->]]]|[-> [-> ->]]]]]]];
    rewrite ?count_occ_app; cbn [count_occ]; try destruct (msg_dec m x); lia.
Qed.

Lemma run_all_inv (P : st -> Prop) f op : (forall s, P s -> P (tick_step f s)) -> (forall s, P s -> P (sock_step op s)) ->
  forall sched s, P s -> P (run f op sched s) /\ P (run_all f op sched s).
Proof.
  intros HT HS.
  assert (R : forall sched s, P s -> P (run f op sched s)).
  { induction sched as [|b r IH]; intros s H; cbn [run]; [exact H|]. apply IH. unfold sched_step.
    destruct b; [destruct (t_live s)|destruct (s_live s)]; auto. }
  assert (DT : forall n s, P s -> P (drain_t n f s)).
  { induction n as [|n IH]; intros s H; cbn [drain_t]; [exact H|]. destruct (t_live s); auto. }
  assert (DS : forall n s, P s -> P (drain_s n op s)).
  { induction n as [|n IH]; intros s H; cbn [drain_s]; [exact H|]. destruct (s_live s); auto. }
  intros sched s H. split; [|apply DS, DT]; apply R, H.
Qed.

Lemma init_inv r fh q : Inv (init r fh q).
Proof. intros x. cbn. lia. Qed.

(* on time: whatever the schedule, only bursts of the tick's own frame are emitted; only past ones are reported stale *)
Definition pending_e (s : st) : list msg := match tpc s with TK2u e _ | TK3 e _ => e | _ => [] end.
Definition pending_d (s : st) : list msg := match tpc s with TK2u _ d | TK3 _ d => d | _ => [] end.
Definition due (f : Z) (m : msg) : Prop := delta (snd m) f = 0.
Definition behind (f : Z) (m : msg) : Prop := delta (snd m) f <> 0 /\ HF / 2 <= delta (snd m) f.
Definition Timely (f : Z) (s : st) : Prop :=
  Forall (due f) (emitted s) /\ Forall (due f) (pending_e s)
  /\ Forall (behind f) (stale s) /\ Forall (behind f) (pending_d s).

Lemma part_frames f q : let '(d, e, w) := part f q in
  Forall (behind f) d /\ Forall (due f) e /\ Forall (fun m => delta (snd m) f <> 0 /\ delta (snd m) f < HF / 2) w.
Proof.
  induction q as [|m r IH]; cbn [part]; [repeat split; constructor|]. destruct (part f r) as [[d e] w]. destruct IH as [A [B C]].
  unfold due, behind. destruct (delta (snd m) f =? 0) eqn:E1; [repeat split; try assumption; constructor; [lia|assumption]|].
  destruct (delta (snd m) f <? HF / 2) eqn:E2; repeat split; try assumption; constructor; try (split; lia); assumption.
Qed.

Lemma tick_timely f s : Timely f s -> Timely f (tick_step f s).
Proof.
  unfold Timely, tick_step, pending_e, pending_d. intros [H1 [H2 [H3 H4]]].
  destruct (tpc s) as [| | |e d|e d| |l] eqn:E.
  - cbn. repeat split; auto.
  - destruct (running s); cbn; repeat split; auto.
  - (* TK2: the partition under the lock *)
    pose proof (part_frames f (queue s)) as P. destruct (part f (queue s)) as [[d e] w]. destruct P as [Pd [Pe _]].
    cbn; repeat split; auto.
  - destruct e as [|m e]; cbn; repeat split; auto; try apply Forall_app; auto.
  - destruct e as [|m rest]; [cbn; repeat split; auto; apply Forall_app; auto|].
    inversion H2 as [|? ? Hm Hr]; subst. unfold after_fwd.
    destruct rest as [|m2 r2]; cbn; repeat split; auto; try (apply Forall_app; split; auto).
  - rewrite E. repeat split; auto.
  - rewrite E. repeat split; auto.
Qed.
Lemma sock_timely f op s : Timely f s -> Timely f (sock_step op s).
Proof. unfold Timely, pending_e, pending_d. destruct (sock_step_lists op s) as [-> [-> [-> _]]]. auto. Qed.
Lemma init_timely f r fh q : Timely f (init r fh q).
Proof. unfold Timely. cbn. auto. Qed.

(* the clock thread survives every schedule, hopping or not, whatever the racing operation *)
Definition Alive (s : st) : Prop := match tpc s with TCrash _ => False | _ => True end.
Lemma tick_alive f s : Alive s -> Alive (tick_step f s).
Proof.
  unfold Alive, tick_step. intros H. destruct (tpc s) as [| | |e d|e d| |l] eqn:E; try contradiction.
  - cbn. auto.
  - destruct (running s); cbn; auto.
  - destruct (part f (queue s)) as [[d e] w]. cbn; auto.
  - destruct e; cbn; auto.
  - destruct e as [|m rest]; [cbn; auto|]. unfold after_fwd. destruct rest; cbn; auto.
  - rewrite E. auto.
Qed.
Lemma sock_alive op s : Alive s -> Alive (sock_step op s).
Proof. unfold Alive. destruct (sock_step_lists op s) as [-> _]. auto. Qed.

(* one schedule of the former hopping race (POWEROFF clears fh between the clock thread's steps): the clock thread finishes *)
Example former_fh_race_witness : tpc (run_all 10 PowerOff [true; true; true; true; true; false; false; false; false; false; false; true] (init true true [(1, 10)])) = TDone.
Proof. vm_compute. reflexivity. Qed.
