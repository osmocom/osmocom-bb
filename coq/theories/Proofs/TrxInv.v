(* invariants of the session model over ALL datagram / tick histories, and absence of crashes (C14, used by C02 C03 C05 C12) *)
From Coq Require Import ZArith List Bool Lia ZifyBool.
From OBB Require Import Base.Lists Gen.TrxdConst Gen.FakeTrxConst Model.Trxd Model.Trx Proofs.TrxMeta Proofs.TrxMeta2.
Import ListNotations.
Open Scope Z_scope.

Definition fh_ok (t : trx) : Prop := forall h, x_fh t = Some h -> 0 <= fh_hsn h <= 63 /\ fh_ma h <> [].
Definition q_ok (t : trx) : Prop := Forall (fun m => 0 <= oz (t_fn m)) (x_q t).
(* the artificial TRXC delay a FAKE_TRXC_DELAY history can leave behind is one time.sleep() takes (fake_trx.py refuses longer ones) *)
Definition dl_ok (t : trx) : Prop := s_delay (x_sim t) <= 9223372036854.
Definition wf_trx (t : trx) : Prop := sim_ok (x_sim t) /\ fh_ok t /\ q_ok t /\ dl_ok t.
Definition wf_world (w : world) : Prop := Forall wf_trx (w_trx w).

Lemma trx0_wf c : wf_trx (trx0 c).
Proof. split; [unfold sim_ok; cbn; lia|]. split; [intros h H; discriminate|]. split; [constructor|unfold dl_ok; cbn; lia]. Qed.

Lemma nth_wf l i t : Forall wf_trx l -> nth_error l i = Some t -> wf_trx t.
Proof. intros H E. rewrite Forall_forall in H. apply H. eapply nth_error_In. exact E. Qed.

Lemma upd_Forall {A} (P : A -> Prop) f : forall l i, Forall P l -> (forall x, P x -> P (f x)) -> Forall P (upd l i f).
Proof.
  induction l as [|x r IH]; intros i Hl Hf; [destruct i; constructor|].
  inversion Hl as [|x' r' Hx Hr]; subst. destruct i; cbn [upd]; constructor; auto.
Qed.
Lemma upd_length {A} (f : A -> A) : forall l i, length (upd l i f) = length l.
Proof. induction l as [|x r IH]; intros [|i]; cbn [upd length]; auto. Qed.
Lemma upd_nth {A} (f : A -> A) : forall l i k, nth_error (upd l i f) k = if Nat.eqb i k then option_map f (nth_error l k) else nth_error l k.
Proof.
  induction l as [|x r IH]; intros [|i] [|k]; cbn [upd nth_error Nat.eqb option_map]; try reflexivity.
  - destruct (Nat.eqb i k); reflexivity.
  - apply IH.
Qed.
Lemma upd_same {A} (f : A -> A) : forall l i x, nth_error l i = Some x -> f x = x -> upd l i f = l.
Proof. induction l as [|y r IH]; intros [|i] x H E; cbn [upd nth_error] in *; try discriminate; [injection H as ->; rewrite E; reflexivity|f_equal; eapply IH; eassumption]. Qed.

Lemma upd_trx_length w i f : length (w_trx (upd_trx w i f)) = length (w_trx w).
Proof. apply upd_length. Qed.
Lemma wf_upd_trx w i f : wf_world w -> (forall t, wf_trx t -> wf_trx (f t)) -> wf_world (upd_trx w i f).
Proof. intros H Hf. apply upd_Forall; assumption. Qed.
Lemma set_sim_same t : set_sim t (x_sim t) = t.
Proof. destruct t; reflexivity. Qed.
Lemma upd_trx_same w i t : nth_error (w_trx w) i = Some t -> upd_trx w i (fun t0 => set_sim t0 (x_sim t)) = w.
Proof. intros H. unfold upd_trx, set_trxs. rewrite (upd_same _ _ _ _ H) by apply set_sim_same. destruct w; reflexivity. Qed.

(* wf_trx looks at x_sim, x_fh and x_q only: set_rx, set_tx, set_ver and set_run keep it by conversion *)
Lemma wf_set_sim t s : wf_trx t -> sim_ok s -> s_delay s <= trxc_delay_ms_max -> wf_trx (set_sim t s).
Proof. intros [_ [H2 [H3 _]]] Hs Hd. split; [exact Hs|]. split; [exact H2|split; [exact H3|exact Hd]]. Qed.
Lemma wf_set_q t q : wf_trx t -> Forall (fun m => 0 <= oz (t_fn m)) q -> wf_trx (set_q t q).
Proof. intros [H1 [H2 [_ H4]]] Hq. split; [exact H1|split; [exact H2|split; [exact Hq|exact H4]]]. Qed.
Lemma wf_set_fh t h : wf_trx t -> 0 <= fh_hsn h <= 63 -> fh_ma h <> [] -> wf_trx (set_fh t (Some h)).
Proof. intros [H1 [_ H3]] Hh Hm. split; [exact H1|split; [|exact H3]]. intros h' E. cbn in E. injection E as <-. auto. Qed.
Lemma wf_power_one on t : wf_trx t -> wf_trx (power_one on t).
Proof.
  intros H. unfold power_one. destruct on; [exact H|]. destruct H as [H1 [_ [_ H4]]].
  split; [exact H1|]. split; [intros h E; discriminate|]. split; [constructor|exact H4].
Qed.

Lemma fold_left_inv_on {A B} (P : A -> Prop) (Q : B -> Prop) (f : A -> B -> A) :
  (forall a b, Q b -> P a -> P (f a b)) -> forall l a, Forall Q l -> P a -> P (fold_left f l a).
Proof. intros Hf. induction l as [|b r IH]; intros a Hl H; cbn [fold_left]; [exact H|]. inversion Hl; subst. auto. Qed.

Lemma power_event_trxs (P : list trx -> Prop) w i on :
  (forall l j, P l -> P (upd l j (power_one on))) -> P (w_trx w) -> P (w_trx (power_event w i on)).
Proof.
  intros Hs H0. unfold power_event. destruct (nth_error (w_trx w) i) as [t|]; [|exact H0].
  destruct (c_clock (x_cfg t)); cbn [w_trx]; apply fold_left_inv; assumption.
Qed.

Lemma wf_power_event w i on : wf_world w -> wf_world (power_event w i on).
Proof. apply power_event_trxs. intros l j Hl. apply upd_Forall; [exact Hl|apply wf_power_one]. Qed.
Lemma power_event_length w i on : length (w_trx (power_event w i on)) = length (w_trx w).
Proof. apply (power_event_trxs (fun l => length l = length (w_trx w))); [|reflexivity]. intros l j <-. apply upd_length. Qed.

Lemma sim_set_ok s m f txp att toa tt rs rt ci ct ta dr pe de :
  0 <= tt -> 0 <= rt -> 0 <= ct -> 0 <= dr -> 0 < pe -> sim_ok (sim_set s m f txp att toa tt rs rt ci ct ta dr pe de).
Proof. intros. unfold sim_ok, sim_set. cbn. lia. Qed.

(* the FAKE_* handler, whatever the tokens are.  FAKE_TRXC_DELAY stores the delay and passes the command on (fk_delay) *)
Inductive fake_outcome (s : sim) (req : list (list Z)) : sim * option cres -> Prop :=
| fk_other : fake_outcome s req (s, None)
| fk_delay s' : verb_is req v_FAKE_TRXC_DELAY 1 = true -> (sim_ok s -> sim_ok s') -> s_delay s' <= trxc_delay_ms_max ->
    fake_outcome s req (s', None)
| fk_refused r : r = CBadInt \/ r = CStatus (-1) [] -> fake_outcome s req (s, Some r)
| fk_set s' : (sim_ok s -> sim_ok s') -> s_delay s' = s_delay s -> fake_outcome s req (s', Some (CStatus 0 [])).

Lemma fake_handler_outcome s req : fake_outcome s req (fake_handler s req).
Proof.
  (* walk the if-chain: every leaf is literally one of the four forms; a wrong threshold sign would fail at sim_set_ok *)
  unfold fake_handler. cbv beta zeta.
  repeat match goal with
  | |- context [if verb_is ?r ?v ?n then _ else _] => destruct (verb_is r v n) eqn:?
  | |- context [match arg ?r ?i with _ => _ end] => destruct (arg r i)
  | |- context [if ?a <? ?b then _ else _] => destruct (a <? b) eqn:?
  | |- context [if ?a <=? ?b then _ else _] => destruct (a <=? b) eqn:?
  end;
  first [ apply fk_other | solve [apply fk_refused; auto]
        | apply fk_set; [intros (? & ? & ? & ? & ?); apply sim_set_ok; first [assumption|lia]|reflexivity]
        | apply fk_delay; [assumption|intros (? & ? & ? & ? & ?); apply sim_set_ok; assumption|cbn; lia] ].
Qed.

(* what a command can do to the world, whatever its tokens; out_none covers refusals, unparsable arguments, unknown verbs and queries *)
Inductive cmd_outcome (w : world) (i : nat) (t : trx) (draws : list Z) : world * cres * list Z -> Prop :=
| out_none r : r <> CCrash -> cmd_outcome w i t draws (w, r, draws)
| out_measure v d' : cmd_outcome w i t draws (w, CStatus 0 [py_str v], d')
| out_set f rc ex : 0 <= rc -> (forall t0, x_run (f t0) = x_run t0 /\ x_cfg (f t0) = x_cfg t0) ->
    (wf_trx t -> forall t0, wf_trx t0 -> wf_trx (f t0)) -> cmd_outcome w i t draws (upd_trx w i f, CStatus rc ex, draws)
| out_power on : (on = true -> x_run t = false /\ ready t = true) -> cmd_outcome w i t draws (power_event w i on, CStatus 0 [], draws).

Lemma verb_is_other req v n v' n' : verb_is req v n = true -> v' <> v -> verb_is req v' n' = false /\ verb_va req v' n' = false.
Proof.
  unfold verb_is, verb_va. destruct req as [|v0 args]; [discriminate|]. intros H Hne. apply andb_prop in H as [H _]. apply list_eqb_eq in H. subst v0.
  destruct (list_eqb v v') eqn:E; [apply list_eqb_eq in E; congruence|auto].
Qed.

Lemma all_ints_length : forall l o, all_ints l = Some o -> length o = length l.
Proof.
  induction l as [|x r IH]; intros o Ho; cbn [all_ints] in Ho; [injection Ho as <-; reflexivity|].
  destruct (py_int x); [|discriminate]. destruct (all_ints r) as [vs|]; [|discriminate]. injection Ho as <-. cbn [length]. f_equal. apply IH. reflexivity.
Qed.

Lemma pairs_nonempty : forall l, (2 <= length l)%nat -> pairs l <> [].
Proof. intros [|a [|b r]] H; cbn in *; try lia. discriminate. Qed.

Lemma pm_ranges : pm_trx_min <= pm_trx_max /\ pm_noise_min <= pm_noise_max.
Proof. split; discriminate. Qed.

Lemma parse_cmd_outcome w i t req draws : nth_error (w_trx w) i = Some t -> cmd_outcome w i t draws (parse_cmd w i req draws).
Proof.
  intros Et. unfold parse_cmd. rewrite Et.
  destruct (fake_handler_outcome (x_sim t) req) as [|s' Hv Hs Hd|r Hr|s' Hs Hd]; cbv beta iota zeta.
  - (* not a simulation command: the common handler *)
    rewrite (upd_trx_same w i t Et), set_sim_same.
    destruct (verb_is req v_POWERON 0).
    { destruct (x_run t) eqn:Er; [now apply out_none|]. destruct (ready t) eqn:Erd; [apply out_power; auto|now apply out_none]. }
    destruct (verb_is req v_POWEROFF 0). { apply out_power. discriminate. }
    destruct (verb_is req v_RXTUNE 1). { destruct (arg req 1); [apply out_set; [lia|auto|auto]|now apply out_none]. }
    destruct (verb_is req v_TXTUNE 1). { destruct (arg req 1); [apply out_set; [lia|auto|auto]|now apply out_none]. }
    destruct (verb_is req v_MEASURE 1).
    { destruct (negb (c_pm (x_cfg t))); [now apply out_none|]. destruct (arg req 1) as [a|]; [|now apply out_none].
      destruct (pm_match (w_trx w) (a * 1000));
        [destruct (randint_range _ _ draws (proj1 pm_ranges)) as [v [d' [-> _]]]|destruct (randint_range _ _ draws (proj2 pm_ranges)) as [v [d' [-> _]]]];
        apply out_measure. }
    destruct (verb_va req v_SETFH 4) eqn:Eva.
    { destruct (all_ints (tl req)) as [ints|] eqn:Ea; [|now apply out_none].
      (* at least four arguments, all integers: HSN, MAIO and a non-empty list of pairs *)
      apply all_ints_length in Ea. destruct req as [|v args]; [discriminate|]. apply andb_prop in Eva as [_ Eva]. apply Nat.leb_le in Eva. cbn [tl] in Ea.
      destruct ints as [|hsn [|maio fs]]; [cbn in Ea; lia|cbn in Ea; lia|].
      destruct (length (pairs (map (fun f => (f * 1000)%Z) fs)) =? 0)%nat eqn:El; [now apply out_none|].
      destruct ((hsn <? 0) || (63 <? hsn)) eqn:Eh; [now apply out_none|].
      apply out_set; [lia|auto|]. intros _ t0 H0. apply wf_set_fh; [exact H0|cbn; lia|].
      cbn [fh_ma]. intros E. rewrite E in El. discriminate. }
    destruct (verb_is req v_SETFORMAT 1).
    { destruct (arg req 1) as [v|]; [|now apply out_none]. destruct ((v <? 0) || (v >? chdr_version_max)) eqn:Ev; [now apply out_none|].
      destruct (known v); [apply out_set; [lia|auto|auto]|now apply out_none]. }
    destruct (verb_is req v_SETPOWER 1).
    { destruct (arg req 1); [|now apply out_none]. apply out_set; [lia|auto|]. intros [(? & ? & ? & ? & ?) [_ [_ ?]]] t0 Ht0.
      apply wf_set_sim; [exact Ht0|apply sim_set_ok; assumption|assumption]. }
    destruct (verb_is req v_NOMTXPOWER 0). { now apply out_none. }
    destruct (verb_is req v_RFMUTE 1).
    { destruct (arg req 1); [|now apply out_none]. apply out_set; [lia|auto|]. intros [(? & ? & ? & ? & ?) [_ [_ ?]]] t0 Ht0.
      apply wf_set_sim; [exact Ht0|apply sim_set_ok; assumption|assumption]. }
    now apply out_none.
  - (* FAKE_TRXC_DELAY with an acceptable delay: stored, then acknowledged by the common handler as a verb it does not know *)
    repeat match goal with
    | |- context [verb_is req ?v ?n] => rewrite (proj1 (verb_is_other req _ _ v n Hv ltac:(discriminate)))
    | |- context [verb_va req ?v ?n] => rewrite (proj2 (verb_is_other req _ _ v n Hv ltac:(discriminate)))
    end.
    apply out_set; [lia|auto|]. intros Ht t0 H0. apply wf_set_sim; [exact H0|apply Hs, Ht|exact Hd].
  - rewrite (upd_trx_same w i t Et). apply out_none. destruct Hr as [-> | ->]; discriminate.
  - apply out_set; [lia|auto|]. intros Ht t0 H0. apply wf_set_sim; [exact H0|apply Hs, Ht|rewrite Hd; apply Ht].
Qed.

Lemma parse_cmd_inv w i req draws : wf_world w -> (i < length (w_trx w))%nat ->
  let '(w', r, _) := parse_cmd w i req draws in
  wf_world w' /\ length (w_trx w') = length (w_trx w) /\ r <> CCrash.
Proof.
  intros Hw Hi. destruct (nth_error (w_trx w) i) as [t|] eqn:Et; [|apply nth_error_None in Et; lia].
  destruct (parse_cmd_outcome w i t req draws Et) as [r Hr|v d'|f rc ex _ _ Hf|on _].
  - auto.
  - split; [exact Hw|]. split; [reflexivity|discriminate].
  - split; [apply wf_upd_trx; [exact Hw|apply Hf, (nth_wf _ _ _ Hw Et)]|]. split; [apply upd_trx_length|discriminate].
  - split; [apply wf_power_event, Hw|]. split; [apply power_event_length|discriminate].
Qed.

(* send_response after the artificial delay (the `send` of Model.Trx.handle_rx, verbatim): a delay held by a well-formed transceiver
   never overflows time.sleep(), the reply goes out *)
Lemma send_reply w' i b : wf_world w' ->
  match nth_error (w_trx w') i with
  | Some t' => if sleep_overflows (s_delay (x_sim t')) then RCrashed else RReply b
  | None => RReply b end = RReply b.
Proof.
  intros H1. destruct (nth_error (w_trx w') i) as [t'|] eqn:Et; [|reflexivity].
  destruct (nth_wf _ _ _ H1 Et) as [_ [_ [_ Hd]]]. unfold dl_ok in Hd. unfold sleep_overflows.
  destruct ((0 <? s_delay (x_sim t')) && (9223372036854775807 <? s_delay (x_sim t') * 1000000)) eqn:E; [lia|reflexivity].
Qed.

Theorem handle_rx_inv w i data draws : wf_world w -> (i < length (w_trx w))%nat ->
  let '(w', out, _) := handle_rx w i data draws in
  wf_world w' /\ length (w_trx w') = length (w_trx w) /\ out <> RCrashed.
Proof.
  intros Hw Hi. unfold handle_rx.
  destruct (existsb _ _); [split; [exact Hw|split; [reflexivity|discriminate]]|].
  destruct (negb _); [split; [exact Hw|split; [reflexivity|discriminate]]|].
  pose proof (parse_cmd_inv w i (split_sp (strip is_nul (strip is_ws (skipn 4 (firstn (Z.to_nat ctrl_recv_size) data)))) []) draws Hw Hi) as H.
  destruct (parse_cmd w i _ draws) as [[w' r] d']. destruct H as [H1 [H2 H3]].
  destruct r; [| |congruence]; rewrite (send_reply w' i _ H1); (split; [exact H1|split; [exact H2|discriminate]]).
Qed.
