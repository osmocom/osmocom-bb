(* C14: the message parser signals nothing but ValueError, whatever the octets *)
From Coq Require Import ZArith List Bool Lia ZifyBool.
From OBB Require Import Gen.TrxdConst Model.Trxd Proofs.TrxdBase.
Import ListNotations.
Open Scope Z_scope.

Lemma idx_ok l i : (i < length l)%nat -> exists x, idx l i = Ok x.
Proof. intros H. unfold idx. destruct (nth_error l i) eqn:E; [eauto|]. apply nth_error_None in E. lia. Qed.

Lemma slice_len l a b : (b <= length l)%nat -> length (slice l a b) = (b - a)%nat.
Proof. intros H1. unfold slice. rewrite firstn_length, skipn_length. lia. Qed.

Lemma un_be32_ok l : length l = 4%nat -> exists x, un_be32 l = Ok x.
Proof. intros H. destruct l as [|a [|b [|c [|d [|e r]]]]]; try discriminate. unfold un_be32. eauto. Qed.
Lemma un_i16_ok l : length l = 2%nat -> exists x, un_i16 l = Ok x.
Proof. intros H. destruct l as [|a [|b [|c r]]]; try discriminate. unfold un_i16. eauto. Qed.

Theorem parse_tx_total msg : parse_tx msg <> Crash.
Proof.
  unfold parse_tx. destruct (Nat.ltb (length msg) 5) eqn:E5; [discriminate|]. apply Nat.ltb_ge in E5.
  destruct (idx_ok msg 0 ltac:(lia)) as [b0 ->]. cbn [bind].
  destruct (known (Z.shiftr b0 4)) eqn:Ek; cbn [negb]; [|discriminate].
  destruct (un_be32_ok (slice msg 1 5) (slice_len msg 1 5 ltac:(lia))) as [fn ->]. cbn [bind].
  apply known_iff in Ek. unfold tx_hdr_len. replace ((Z.shiftr b0 4 =? 0) || (Z.shiftr b0 4 =? 1)) with true by lia. cbn [bind].
  destruct (Nat.ltb (length msg) 6) eqn:E6; [discriminate|]. apply Nat.ltb_ge in E6.
  destruct (idx_ok msg 5 ltac:(lia)) as [p ->]. cbn [bind]. destruct (Nat.eqb (length msg) 6); discriminate.
Qed.

Theorem parse_rx_total msg : parse_rx msg <> Crash.
Proof.
  unfold parse_rx. destruct (Nat.ltb (length msg) 5) eqn:E5; [discriminate|]. apply Nat.ltb_ge in E5.
  destruct (idx_ok msg 0 ltac:(lia)) as [b0 ->]. cbn [bind]. set (v := Z.shiftr b0 4). clearbody v.
  destruct (known v) eqn:Ek; cbn [negb]; [|discriminate]. apply known_iff in Ek.
  destruct (un_be32_ok (slice msg 1 5) (slice_len msg 1 5 ltac:(lia))) as [fn ->]. cbn [bind].
  assert (Hh : exists hl, rx_hdr_len v = Ok hl /\ (8 <= hl)%nat /\ (v >=? 1 = true -> (11 <= hl)%nat)).
  { destruct Ek as [-> | ->]; eexists; (split; [reflexivity|]); split; try lia; discriminate. }
  destruct Hh as (hl & -> & H8 & H11). cbn [bind].
  destruct (Nat.ltb (length msg) hl) eqn:El; [discriminate|]. apply Nat.ltb_ge in El.
  destruct (idx_ok msg 5 ltac:(lia)) as [r ->]. cbn [bind].
  destruct (un_i16_ok (slice msg 6 8) (slice_len msg 6 8 ltac:(lia))) as [toa ->]. cbn [bind].
  destruct (if v >=? 1 then _ else _) as [[[[[np mt] ts] tc] ci]| |] eqn:Eh; cbn [bind]; [|discriminate|exfalso; revert Eh].
  - destruct (Nat.eqb (length msg) hl); [discriminate|]. destruct (v =? 0); [|discriminate].
    destruct (match pick_by_bl _ with Some i => Some i | None => _ end); discriminate.
  - destruct (v >=? 1); [|discriminate]. specialize (H11 eq_refl). destruct (idx_ok msg 8 ltac:(lia)) as [mts ->]. cbn [bind].
    destruct (un_i16_ok (slice msg 9 11) (slice_len msg 9 11 ltac:(lia))) as [ci ->]. cbn [bind].
    destruct (parse_mts mts) as [[[np mt] ts] tc]. discriminate.
Qed.
