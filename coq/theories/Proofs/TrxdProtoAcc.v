(* C17: every version-0/1 datagram the message codec (Model/Trxd.v: gen_tx / gen_rx, legacy padding on or off) produces is
   accepted by the corresponding PDU definition, with the field values of the message. *)
From Coq Require Import ZArith List Bool Lia.
From OBB Require Model.Trxd Proofs.TrxdBase Proofs.TrxdTx Proofs.TrxdRx Proofs.TrxdRxRT.
From OBB Require Import Gen.TrxdProto Base.Range Model.Codec Proofs.CodecInt Proofs.CodecBits Proofs.CodecRT Proofs.CodecDE
  Proofs.CodecErr Proofs.CodecGood Proofs.TrxdProtoSpec Proofs.TrxdProtoBits Proofs.TrxdProtoMsg Proofs.TrxdProtoTop.
Import ListNotations.
Open Scope Z_scope.

Definition legacy_pad (legacy:bool) (ver:Z) : list Z := if legacy && (ver =? 0) then [0; 0] else [].

(* accepted; the burst field holds the burst FOLLOWED BY the legacy padding (PDUv0Tx has no padding field) *)
Lemma acc_tx legacy m b : Trxd.gen_tx legacy m = Trxd.Ok b ->
  exists fn tn pwr bu, Trxd.t_fn m = Some fn /\ Trxd.t_tn m = Some tn /\ Trxd.t_pwr m = Some pwr /\ Trxd.t_burst m = Some bu /\
    decode true (pdu_tx (Trxd.t_ver m)) b
      = Ok (tx_fields (Trxd.t_ver m) tn fn pwr (bu ++ legacy_pad legacy (Trxd.t_ver m)), length b).
Proof.
  intros Hgen. destruct (TrxdTx.gen_tx_layout _ _ _ Hgen) as [fn [tn [pwr [bu [Ef [Et [Ep [Eb ->]]]]]]]].
  assert (Hv : Trxd.validate_tx m = Trxd.Ok tt) by (apply (proj1 (TrxdTx.gen_tx_iff m legacy)); eauto).
  apply TrxdTx.validate_tx_iff in Hv. destruct Hv as [[Hver [[f' [Ef' Hf]] [t' [Et' Ht]]]] [[p' [Ep' Hp]] _]].
  rewrite Ef in Ef'. rewrite Et in Et'. rewrite Ep in Ep'. injection Ef' as <-. injection Et' as <-. injection Ep' as <-.
  exists fn, tn, pwr, bu. repeat (split; [assumption|]).
  (* the message codec's layout followed by the padding is tx_layout with the padding inside the burst, by computation *)
  apply (tx_accepts (Trxd.t_ver m) tn fn pwr (bu ++ legacy_pad legacy (Trxd.t_ver m))); [exact Hver|lia|lia|lia].
Qed.

(* what a generated Rx datagram tells: the header values, in the ranges of the PDU definitions, its layout, and the
   validated rest of the message *)
Lemma gen_rx_hdr legacy m b : Trxd.gen_rx legacy m = Trxd.Ok b ->
  (match Trxd.r_burst m with Some bs => Forall (fun s => -128 <= s <= 127) bs | None => True end) ->
  exists fn tn rssi toa, Trxd.r_fn m = Some fn /\ Trxd.r_tn m = Some tn /\ Trxd.r_rssi m = Some rssi /\ Trxd.r_toa m = Some toa /\
    (0 <= tn < 8 /\ 0 <= fn < 4294967296 /\ -255 <= rssi <= 0 /\ -32768 <= toa < 32768) /\ TrxdRx.spec_rx m /\
    b = TrxdRxRT.layout_rx_hdr (Trxd.r_ver m) fn tn rssi toa
        ++ (if Trxd.r_ver m =? 1 then [Trxd.gen_mts m] ++ TrxdRxRT.layout_ci (Trxd.oz (Trxd.r_ci m)) else [])
        ++ (match Trxd.r_burst m with Some bs => TrxdRxRT.usbits bs | None => [] end)
        ++ legacy_pad legacy (Trxd.r_ver m).
Proof.
  intros Hgen Hsoft. destruct (TrxdRxRT.gen_rx_layout _ _ _ Hgen Hsoft) as [fn [tn [rssi [toa [Ef [Et [Er [Ea Eb]]]]]]]].
  assert (Hv : TrxdRx.spec_rx m) by (apply TrxdRx.validate_rx_iff, (proj1 (TrxdRx.gen_rx_iff m legacy)); eauto).
  pose proof Hv as [[_ [[f' [Ef' Hf]] [t' [Et' Ht]]]] [[r' [Er' Hr]] [[a' [Ea' Ha]] _]]].
  rewrite Ef in Ef'. rewrite Et in Et'. rewrite Er in Er'. rewrite Ea in Ea'. injection Ef' as <-. injection Et' as <-. injection Er' as <-. injection Ea' as <-.
  exists fn, tn, rssi, toa. repeat (split; [assumption|]). split; [lia|]. split; [exact Hv|exact Eb].
Qed.

(* every version-0 Rx datagram of the message codec, legacy padding on or off, GMSK or EDGE *)
Lemma acc_rx0_all legacy m b : Trxd.gen_rx legacy m = Trxd.Ok b -> Trxd.r_ver m = 0 ->
  (match Trxd.r_burst m with Some bs => Forall (fun s => -128 <= s <= 127) bs | None => True end) ->
  exists fn tn rssi toa bs, Trxd.r_fn m = Some fn /\ Trxd.r_tn m = Some tn /\ Trxd.r_rssi m = Some rssi /\ Trxd.r_toa m = Some toa /\
    Trxd.r_burst m = Some bs /\
    decode true pdu_v0_rx b = Ok (rx0_fields tn fn rssi toa (TrxdRxRT.usbits bs) (legacy_pad legacy 0), length b).
Proof.
  intros Hgen Hver Hsoft. destruct (gen_rx_hdr _ _ _ Hgen Hsoft) as [fn [tn [rssi [toa [Ef [Et [Er [Ea [Hrg [Hv ->]]]]]]]]]].
  destruct Hv as [_ [_ [_ [_ [_ [Hb _]]]]]]. destruct (Hb Hver) as [bs [Ebs Hl]].
  exists fn, tn, rssi, toa, bs. repeat (split; [assumption|]).
  rewrite Hver, Ebs. change (0 =? 1) with false. cbv iota. cbn [app].
  apply (rx0_accepts tn fn rssi toa (TrxdRxRT.usbits bs) (legacy_pad legacy 0)); try apply Hrg.
  rewrite TrxdRxRT.usbits_length.
  (* the length rule of the source answers |burst| for GMSK and EDGE, with and without the two legacy padding octets *)
  destruct rule_points as [R1 [R2 [R3 R4]]]. destruct Hl as [E|E]; rewrite E; destruct legacy; [exact R2|exact R1|exact R4|exact R3].
Qed.

Lemma mod_tab_sweep : forallb (fun i => forallb (fun s =>
    implb (TrxdRxRT.tset_ok (Z.to_nat i) s && negb ((i =? 2) && (s =? 1)))
      (match assocZ (Trxd.mod_coding (Z.to_nat i) + s) burst_tab with
       | Some n => (Z.of_nat n =? TrxdRx.spec_mod_bl (Z.to_nat i)) && (Trxd.mod_coding (Z.to_nat i) + s <? 16) && (0 <=? Trxd.mod_coding (Z.to_nat i) + s)
       | None => false end)) (range 0 4)) (range 0 6) = true.
Proof. vm_compute. reflexivity. Qed.

(* the modulation table of trxd_proto agrees with the message codec for every MTS code the codec emits, except GMSK-AB with TSC set 1 *)
Lemma mod_tab_agrees i s : (i < 6)%nat -> TrxdRxRT.tset_ok i s = true -> 0 <= s < 4 -> ~ (i = 2%nat /\ s = 1) ->
  exists n, assocZ (Trxd.mod_coding i + s) burst_tab = Some n /\ Z.of_nat n = TrxdRx.spec_mod_bl i /\ 0 <= Trxd.mod_coding i + s < 16.
Proof.
  intros Hi Hts Hs Hne. assert (Hi' : 0 <= Z.of_nat i < 6) by lia.
  pose proof (forallb_range _ _ _ (forallb_range _ _ _ mod_tab_sweep _ Hi') s Hs) as H. cbv beta in H. rewrite Nat2Z.id, Hts in H.
  assert (Hn : negb ((Z.of_nat i =? 2) && (s =? 1)) = true).
  { destruct (Z.eqb_spec (Z.of_nat i) 2) as [E1|E1]; [|reflexivity]. destruct (Z.eqb_spec s 1) as [E2|E2]; [|reflexivity]. exfalso. apply Hne. split; lia. }
  rewrite Hn in H. cbn [andb implb] in H. destruct (assocZ (Trxd.mod_coding i + s) burst_tab) as [n|]; [|discriminate].
  exists n. split; [reflexivity|]. lia.
Qed.

Lemma acc_rx1 m b : Trxd.gen_rx false m = Trxd.Ok b \/ Trxd.gen_rx true m = Trxd.Ok b -> Trxd.r_ver m = 1 ->
  (match Trxd.r_burst m with Some bs => Forall (fun s => -128 <= s <= 127) bs | None => True end) ->
  exists fn tn rssi toa ci, Trxd.r_fn m = Some fn /\ Trxd.r_tn m = Some tn /\ Trxd.r_rssi m = Some rssi /\ Trxd.r_toa m = Some toa /\ Trxd.r_ci m = Some ci /\
    if Trxd.r_nope m
    then decode true pdu_v1_rx b = Ok (rx1_fields tn fn rssi toa 1 0 0 ci [], length b)
    else exists i s t bs, Trxd.r_mod m = Some i /\ Trxd.r_tset m = Some s /\ Trxd.r_tsc m = Some t /\ Trxd.r_burst m = Some bs /\
         (~ (i = 2%nat /\ s = 1) ->
          decode true pdu_v1_rx b = Ok (rx1_fields tn fn rssi toa 0 (Trxd.mod_coding i + s) t ci (TrxdRxRT.usbits bs), length b)).
Proof.
  intros Hgen Hver Hsoft.
  assert (Hlay : exists l, Trxd.gen_rx l m = Trxd.Ok b) by (destruct Hgen; eauto). destruct Hlay as [l Hg].
  destruct (gen_rx_hdr _ _ _ Hg Hsoft) as [fn [tn [rssi [toa [Ef [Et [Er [Ea [[Ht [Hf [Hr Ha]]] [Hv ->]]]]]]]]]].
  destruct Hv as [_ [_ [_ [Hmts [Hci [_ Hb]]]]]].
  destruct (Hci Hver) as [ci [Eci Hc]]. specialize (Hb Hver). exists fn, tn, rssi, toa, ci. repeat (split; [assumption|]).
  unfold legacy_pad. rewrite Hver. change (1 =? 1) with true. change (1 =? 0) with false. rewrite andb_false_r. cbv iota. rewrite app_nil_r. rewrite Eci. cbn [Trxd.oz].
  destruct (Trxd.r_nope m) eqn:En.
  - rewrite Hb. unfold Trxd.gen_mts. rewrite En, TrxdBase.gen_nope. rewrite app_nil_r.
    apply (rx1_accepts tn fn rssi toa 1 0 0 ci [] Ht Hf Hr Ha); [lia|lia|lia|right; auto].
  - destruct Hb as [bs [i [Ebs [Emod Hlen]]]]. destruct (Hmts Hver eq_refl) as [i' [s [t [Ei [Hi [Es [Etc [Htc Hs]]]]]]]].
    rewrite Emod in Ei. injection Ei as <-. exists i, s, t, bs. repeat (split; [assumption|]). intros Hne.
    destruct (TrxdRxRT.spec_tset_ok i s Hs) as [Hts Hs4]. destruct (mod_tab_agrees i s Hi Hts Hs4 Hne) as [n [Htab [Hn Hmd]]].
    destruct (TrxdRxRT.mts_rt i s t Hi Hts Hs4 ltac:(lia)) as [_ [_ Hval]].
    rewrite Ebs. unfold Trxd.gen_mts. rewrite En, Etc, Emod, Es. fold (TrxdRxRT.mts_val i s t). rewrite Hval.
    replace (t + 8 * (Trxd.mod_coding i + s)) with (0 * 128 + (Trxd.mod_coding i + s) * 8 + t) by lia.
    apply (rx1_accepts tn fn rssi toa 0 (Trxd.mod_coding i + s) t ci (TrxdRxRT.usbits bs) Ht Hf Hr Ha); [lia|lia|lia|].
    left. split; [reflexivity|]. rewrite TrxdRxRT.usbits_length, Htab. f_equal. lia.
Qed.

(* the recorded defects, as refuted strengthenings *)
(* MTS code 7 = GMSK access burst with TSC set 1, which the message codec emits as valid, has no burst length *)
Lemma mts_0111_unknown_refuted :
  assocZ (Trxd.mod_coding 2 + 1) burst_tab = None /\ burst_len_unknown = [7] /\
  decode true pdu_v1_rx ([16; 0; 0; 0; 0; 60; 0; 0; 56; 0; 0] ++ repeat 127 148) = DecodeErr 1.
Proof. split; [|split]; vm_compute; reflexivity. Qed.
(* the legacy padding of a version-0 Tx datagram ends up inside the burst field *)
Lemma v0tx_legacy_pad_refuted :
  decode true pdu_v0_tx ([0; 0; 0; 0; 0; 10] ++ repeat 1 148 ++ [0; 0]) = Ok (tx_fields 0 0 0 10 (repeat 1 148 ++ [0; 0]), 156%nat).
Proof. vm_compute. reflexivity. Qed.
