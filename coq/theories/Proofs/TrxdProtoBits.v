(* C17: the header and MTS bit-field sets of the TRXD PDUs - what they store and the integer they pack to, as arithmetic,
   so that a set is one step of an encoder or decoder walk - and the integer leaves as explicit octets. *)
From Coq Require Import ZArith List Bool Lia.
From OBB Require Import Gen.TrxdProto Base.Bits Model.Codec Proofs.CodecInt Proofs.CodecBits Proofs.CodecRT Proofs.CodecDE Proofs.CodecGood Proofs.CodecDGood Proofs.TrxdProtoSpec.
Import ListNotations.
Open Scope Z_scope.

(* the n-octet, MSB-first set bfs, filled from e, stores bcv and packs to the integer x *)
Definition packs (n:nat) (bfs:list bitf) (e bcv:env) (x:Z) : Prop :=
  bits_wf (LFix n) bfs /\ bits_fit bfs e bcv /\ weigh bfs bcv (8 * Z.of_nat n) = x.

Lemma packs_enc n bfs e bcv x : packs (S n) bfs e bcv x -> enc_bits (bits_layout (LFix (S n)) false bfs) e 0 = Ok x.
Proof.
  intros [Hwf [Hfit <-]]. rewrite (proj1 (bits_enc _ false _ _ _ Hwf Hfit)). f_equal.
  apply (packed_fit _ _ _ Hfit). destruct Hwf as [_ Hw]. cbn [bits_len] in *. lia.
Qed.

(* decoder side: the stored values are themselves a dict the set is filled from (its lookups hold by reflexivity) *)
Lemma packs_dec n bfs bcv x e0 : packs (S n) bfs bcv bcv x -> fresh e0 bcv ->
  dec_bits (bits_layout (LFix (S n)) false bfs) x e0 = Ok (e0 ++ bcv).
Proof. intros Hp Hfr. apply (dec_bits_of_blob _ _ _ bcv); [apply Hp|apply Hp|exact (packs_enc _ _ _ _ _ Hp)|exact Hfr]. Qed.

Lemma good_packs n bfs bcv x octs fs e e0 R cv b : packs (S n) bfs e bcv x -> to_be (S n) x = octs -> good fs e (e0 ++ bcv) R cv b ->
  good (FBits (LFix (S n)) PAlways false bfs :: fs) e e0 R (bcv ++ cv) (octs ++ b).
Proof.
  intros Hp <- Hg.
  apply (good_bits (LFix (S n)) PAlways false bfs bcv x); [reflexivity|reflexivity|apply Hp|apply Hp|exact (packs_enc _ _ _ _ _ Hp)|exact Hg].
Qed.
Lemma dgood_packs n bfs bcv x octs fs e0 tail cv m : packs (S n) bfs bcv bcv x -> from_be octs = x -> length octs = S n -> fresh e0 bcv ->
  dgood fs (e0 ++ bcv) tail cv m -> dgood (FBits (LFix (S n)) PAlways false bfs :: fs) e0 (octs ++ tail) (bcv ++ cv) (length octs + m).
Proof. intros Hp Hx Hl Hfr. apply dgood_bits; [exact Hl|]. rewrite Hx. apply packs_dec; assumption. Qed.

Definition hdr01_cv (v tn:Z) : env := [(n_ver, VInt v); (n_tn, VInt tn)].
Lemma hdr01_packs v tn e : 0 <= v < 16 -> 0 <= tn < 8 -> lookup n_tn e = Some (VInt tn) ->
  packs 1 (hdr01_bits v) e (hdr01_cv v tn) (v * 16 + tn).
Proof.
  intros Hv Ht L1. unfold hdr01_cv. split; [unfold bits_wf; cbn; lia|split; [|cbn [weigh hdr01_bits]; lia]].
  apply bf_fixed; [cbn; lia|]. apply bf_spare. apply bf_named_r; [exact L1|cbn; lia|]. constructor.
Qed.
Lemma good_hdr01 v tn fs e e0 R cv b : 0 <= v < 16 -> 0 <= tn < 8 -> lookup n_tn e = Some (VInt tn) ->
  good fs e (e0 ++ hdr01_cv v tn) R cv b ->
  good (hdr01 v :: fs) e e0 R (hdr01_cv v tn ++ cv) ([v * 16 + tn] ++ b).
Proof. intros Hv Ht L1. eapply good_packs; [apply hdr01_packs; assumption|apply to_be1; lia]. Qed.

Definition mts_cv (np md tc:Z) : env := [(n_nope, VInt np); (n_mod, VInt md); (n_tsc, VInt tc)].
Lemma mts_packs np md tc e : 0 <= np < 2 -> 0 <= md < 16 -> 0 <= tc < 8 ->
  lookup n_nope e = Some (VInt np) -> lookup n_mod e = Some (VInt md) -> lookup n_tsc e = Some (VInt tc) ->
  packs 1 mts_bits e (mts_cv np md tc) (np * 128 + md * 8 + tc).
Proof.
  intros Hn Hm Ht L9 L10 L11. unfold mts_cv. split; [unfold bits_wf; cbn; lia|split; [|cbn [weigh mts_bits]; lia]].
  apply bf_named_r; [exact L9|cbn; lia|]. apply bf_named_r; [exact L10|cbn; lia|]. apply bf_named_r; [exact L11|cbn; lia|]. constructor.
Qed.
Lemma good_mts np md tc fs e e0 R cv b : 0 <= np < 2 -> 0 <= md < 16 -> 0 <= tc < 8 ->
  lookup n_nope e = Some (VInt np) -> lookup n_mod e = Some (VInt md) -> lookup n_tsc e = Some (VInt tc) ->
  good fs e (e0 ++ mts_cv np md tc) R cv b ->
  good (mts :: fs) e e0 R (mts_cv np md tc ++ cv) ([np * 128 + md * 8 + tc] ++ b).
Proof. intros Hn Hm Ht L9 L10 L11. eapply good_packs; [apply mts_packs; assumption|apply to_be1; lia]. Qed.
Lemma dgood_mts np md tc fs e0 tail cv m : 0 <= np < 2 -> 0 <= md < 16 -> 0 <= tc < 8 ->
  fresh e0 (mts_cv np md tc) ->
  dgood fs (e0 ++ mts_cv np md tc) tail cv m ->
  dgood (mts :: fs) e0 ([np * 128 + md * 8 + tc] ++ tail) (mts_cv np md tc ++ cv) (1 + m).
Proof.
  intros Hn Hm Hc. eapply (dgood_packs 0 mts_bits [_; _; _] _ [_]); [apply mts_packs; try assumption; reflexivity|apply from_be1|reflexivity].
Qed.

Definition hdr2_cv (tn ba tr:Z) : env := [(n_ver, VInt 2); (n_tn, VInt tn); (n_batch, VInt ba); (n_trxn, VInt tr)].
Lemma hdr2_packs tn ba tr e : 0 <= tn < 8 -> 0 <= ba < 2 -> 0 <= tr < 64 ->
  lookup n_tn e = Some (VInt tn) -> lookup n_batch e = Some (VInt ba) -> lookup n_trxn e = Some (VInt tr) ->
  packs 2 hdr2_bits e (hdr2_cv tn ba tr) ((32 + tn) * 256 + (ba * 128 + tr)).
Proof.
  intros Ht Hb Hr L1 L13 L15. unfold hdr2_cv. split; [unfold bits_wf; cbn; lia|split; [|cbn [weigh hdr2_bits]; lia]].
  apply bf_fixed; [cbn; lia|]. apply bf_spare. apply bf_named_r; [exact L1|cbn; lia|].
  apply bf_named_r; [exact L13|cbn; lia|]. apply bf_spare. apply bf_named_r; [exact L15|cbn; lia|]. constructor.
Qed.
Lemma good_hdr2 tn ba tr fs e e0 R cv b : 0 <= tn < 8 -> 0 <= ba < 2 -> 0 <= tr < 64 ->
  lookup n_tn e = Some (VInt tn) -> lookup n_batch e = Some (VInt ba) -> lookup n_trxn e = Some (VInt tr) ->
  good fs e (e0 ++ hdr2_cv tn ba tr) R cv b ->
  good (hdr2 :: fs) e e0 R (hdr2_cv tn ba tr ++ cv) ([32 + tn; ba * 128 + tr] ++ b).
Proof. intros Ht Hb Hr L1 L13 L15. eapply good_packs; [apply hdr2_packs; assumption|apply to_be2; lia]. Qed.
Lemma dgood_hdr2 tn ba tr fs e0 tail cv m : 0 <= tn < 8 -> 0 <= ba < 2 -> 0 <= tr < 64 ->
  fresh e0 (hdr2_cv tn ba tr) ->
  dgood fs (e0 ++ hdr2_cv tn ba tr) tail cv m ->
  dgood (hdr2 :: fs) e0 ([32 + tn; ba * 128 + tr] ++ tail)
        (hdr2_cv tn ba tr ++ cv) (2 + m).
Proof.
  intros Ht Hb Hr. eapply (dgood_packs 1 hdr2_bits [_; _; _; _] _ [_; _]); [apply hdr2_packs; try assumption; reflexivity|apply from_be2|reflexivity].
Qed.

Definition hdr2b_cv (tn ba sh tr:Z) : env := [(n_tn, VInt tn); (n_batch, VInt ba); (n_shadow, VInt sh); (n_trxn, VInt tr)].
Lemma hdr2b_packs tn ba sh tr e : 0 <= tn < 8 -> 0 <= ba < 2 -> 0 <= sh < 2 -> 0 <= tr < 64 ->
  lookup n_tn e = Some (VInt tn) -> lookup n_batch e = Some (VInt ba) -> lookup n_shadow e = Some (VInt sh) -> lookup n_trxn e = Some (VInt tr) ->
  packs 2 hdr2b_bits e (hdr2b_cv tn ba sh tr) (tn * 256 + (ba * 128 + sh * 64 + tr)).
Proof.
  intros Ht Hb Hs Hr L1 L13 L14 L15. unfold hdr2b_cv. split; [unfold bits_wf; cbn; lia|split; [|cbn [weigh hdr2b_bits]; lia]].
  apply bf_spare. apply bf_spare. apply bf_named_r; [exact L1|cbn; lia|]. apply bf_named_r; [exact L13|cbn; lia|].
  apply bf_named_r; [exact L14|cbn; lia|]. apply bf_named_r; [exact L15|cbn; lia|]. constructor.
Qed.
Lemma good_hdr2b tn ba sh tr fs e e0 R cv b : 0 <= tn < 8 -> 0 <= ba < 2 -> 0 <= sh < 2 -> 0 <= tr < 64 ->
  lookup n_tn e = Some (VInt tn) -> lookup n_batch e = Some (VInt ba) -> lookup n_shadow e = Some (VInt sh) -> lookup n_trxn e = Some (VInt tr) ->
  good fs e (e0 ++ hdr2b_cv tn ba sh tr) R cv b ->
  good (hdr2b :: fs) e e0 R (hdr2b_cv tn ba sh tr ++ cv)
       ([tn; ba * 128 + sh * 64 + tr] ++ b).
Proof. intros Ht Hb Hs Hr L1 L13 L14 L15. eapply good_packs; [apply hdr2b_packs; assumption|apply to_be2; lia]. Qed.

(* the five RFU bits of a sub-PDU's first octet are outside every field of hdr2b *)
Lemma hdr2b_dec_ext h h' h2 e : 0 <= h2 < 256 -> Z.land h 7 = Z.land h' 7 ->
  dec_bits (bits_layout (LFix 2) false hdr2b_bits) (h' * 256 + h2) e = dec_bits (bits_layout (LFix 2) false hdr2b_bits) (h * 256 + h2) e.
Proof.
  intros Hh2 E. apply dec_bits_ext. repeat constructor; cbn [same_window].
  - rewrite !(window_hi _ _ 8 8), !Z.shiftr_0_r by lia. symmetry. exact E.
  - rewrite !(window_lo _ _ 8 7 1) by lia. reflexivity.
  - rewrite !(window_lo _ _ 8 6 1) by lia. reflexivity.
  - rewrite !(window_lo _ _ 8 0 6) by lia. reflexivity.
Qed.

(* sub-PDU header whose first octet is TN + 8 * j: the RFU bits hold j (any integer: only the octet modulo 8 is looked at) *)
Lemma dgood_hdr2b tn ba sh tr j fs e0 tail cv m : 0 <= tn < 8 -> 0 <= ba < 2 -> 0 <= sh < 2 -> 0 <= tr < 64 ->
  fresh e0 (hdr2b_cv tn ba sh tr) ->
  dgood fs (e0 ++ hdr2b_cv tn ba sh tr) tail cv m ->
  dgood (hdr2b :: fs) e0 ([tn + 8 * j; ba * 128 + sh * 64 + tr] ++ tail)
        (hdr2b_cv tn ba sh tr ++ cv) (2 + m).
Proof.
  intros Ht Hb Hs Hr Hfr. apply (dgood_bits (LFix 2) false hdr2b_bits [_; _; _; _] _ _ [_; _]); [reflexivity|].
  rewrite from_be2, (hdr2b_dec_ext tn (tn + 8 * j)).
  - apply packs_dec; [apply hdr2b_packs; try assumption; reflexivity|exact Hfr].
  - lia.
  - change 7 with (Z.ones 3). rewrite !Z.land_ones by lia. change (2 ^ 3) with 8. rewrite (Z.mul_comm 8 j), Z.mod_add by lia. reflexivity.
Qed.
