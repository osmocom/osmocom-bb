(* Lemmas about Model/MobAllocCd.v (C20): the Cell Channel Description sub-branch of gsm48_rr_render_ma. *)
From Coq Require Import ZArith List Bool Lia ZifyBool.
From OBB Require Import Base.Range Gen.MobAllocConst Gen.MobAllocSi4Const Model.MobAlloc Model.MobAllocSi4 Model.MobAllocCd Proofs.MobAllocP Proofs.MobAllocSi4P.
Import ListNotations.
Open Scope Z_scope.

Lemma zn_map_combine_range (g : Z * Z -> Z) l n a : Zlength l = n -> 0 <= a < n ->
  zn (map g (combine (range 0 n) l)) a = g (a, zn l a).
Proof. intros Hl Ha. unfold zn. rewrite Zlength_correct in Hl.
  assert (Hr : length (range 0 n) = Z.to_nat n) by (unfold range; rewrite map_length, seq_length; f_equal; lia).
  rewrite (nth_indep _ 0 (g (0, 0))) by (rewrite map_length, combine_length; lia).
  rewrite (map_nth g (combine (range 0 n) l) (0, 0)), combine_nth by lia. rewrite range_nth by lia. f_equal. f_equal. lia. Qed.

Lemma Zlength_map_combine_range (g : Z * Z -> Z) l n : Zlength l = n -> Zlength (map g (combine (range 0 n) l)) = n.
Proof. intros Hl. rewrite Zlength_correct in *. rewrite map_length, combine_length.
  rewrite range_length. lia. Qed.

Lemma bm0_table_length freq cd : Zlength freq = 1024 -> Zlength (bm0_table freq cd) = 1024.
Proof. apply Zlength_map_combine_range. Qed.
Lemma other_table_length freq o : Zlength freq = 1024 -> Zlength (other_table freq o) = 1024.
Proof. apply Zlength_map_combine_range. Qed.

Lemma bm0_bit_spec cd a : 1 <= a -> bm0_bit cd a = Z.testbit (zn cd (15 - (a - 1) / 8)) ((a - 1) mod 8).
Proof. intros Ha. unfold bm0_bit. rewrite bit_test by lia. rewrite Z.shiftr_div_pow2 by lia. reflexivity. Qed.

Lemma clr_serv_lit m : clr_serv m = Z.land m 254.
Proof. exact (u8_clr m 1). Qed.
Lemma set_clr_serv_lit m : set_serv (clr_serv m) = Z.lor (Z.land m 254) 1.
Proof. rewrite clr_serv_lit. unfold set_serv. rewrite u8_set, u8_land, <- Z.land_assoc. reflexivity. Qed.

Lemma clr_serv_bit0 m : Z.testbit (clr_serv m) 0 = false.
Proof. rewrite clr_serv_lit, Z.land_spec. apply andb_false_r. Qed.
Lemma set_serv_bit0 m : Z.testbit (set_serv m) 0 = true.
Proof. unfold set_serv. rewrite u8_set, Z.lor_spec. apply orb_true_r. Qed.

(* bit map 0 format: bits 7, 6 of the first octet are 00 *)
Lemma format_sweep : forallb (fun b => Bool.eqb (Z.land (Z.land b 192) 206 =? 0) (b <? 64)) (range 0 256) = true.
Proof. rewrite range_upfrom. vm_compute. reflexivity. Qed.
Lemma format_bm0 b : 0 <= b < 256 -> (Z.land (Z.land b 192) 206 =? 0) = (b <? 64).
Proof. intros H. pose proof (forallb_range _ _ _ format_sweep b H) as S. cbv beta in S. apply eqb_prop in S. exact S. Qed.

(* the cell allocation in force after the call is the description's set: the previous allocation is cleared *)
Lemma bm0_serving freq cd a : Zlength freq = 1024 -> 0 <= a < 1024 -> serving (bm0_table freq cd) a = bm0_has cd a.
Proof. intros Hl Ha. rewrite serving_is_serv, is_serv_testbit. unfold bm0_table. rewrite zn_map_combine_range by assumption. cbn [fst snd]. unfold bm0_has.
  destruct ((1 <=? a) && (a <=? 124)) eqn:E; cbn [andb].
  - rewrite bm0_bit_spec by lia. destruct (Z.testbit (zn cd (15 - (a - 1) / 8)) ((a - 1) mod 8)); [apply set_serv_bit0|apply clr_serv_bit0].
  - apply clr_serv_bit0. Qed.

Lemma other_serving freq other a : Zlength freq = 1024 -> 0 <= a < 1024 -> serving (other_table freq other) a = has other a.
Proof. intros Hl Ha. rewrite serving_is_serv, is_serv_testbit. unfold other_table. rewrite zn_map_combine_range by assumption. cbn [fst snd].
  destruct (has other a); [apply set_serv_bit0|apply clr_serv_bit0]. Qed.

Lemma bm0_masks freq cd a : Zlength freq = 1024 -> 0 <= a < 1024 ->
  zn (bm0_table freq cd) a = if bm0_has cd a then Z.lor (Z.land (zn freq a) 254) 1 else Z.land (zn freq a) 254.
Proof. intros Hl Ha. unfold bm0_table. rewrite zn_map_combine_range by assumption. cbn [fst snd]. unfold bm0_has.
  destruct ((1 <=? a) && (a <=? 124)) eqn:E; cbn [andb]; [|apply clr_serv_lit].
  rewrite bm0_bit_spec by lia. destruct (Z.testbit _ _); [apply set_clr_serv_lit|apply clr_serv_lit]. Qed.

Lemma render_cd_absent lv x other freq ma ma_len : render_ma_cd lv (0 :: x) other freq ma ma_len = render_ma lv freq ma ma_len.
Proof. unfold render_ma_cd, render_ma. destruct (rd lv 0) as [l|]; [|reflexivity]. destruct (l =? 0); [reflexivity|].
  change (rd (0 :: x) 0) with (Some 0). reflexivity. Qed.

Lemma render_cd_wrong_len l v cl x other freq ma ma_len : l <> 0 -> cl <> 0 -> cl <> 16 ->
  render_ma_cd (l :: v) (cl :: x) other freq ma ma_len = Ok 1 (mkst freq ma ma_len).
Proof. intros H0 H1 H2. unfold render_ma_cd. change (rd (l :: v) 0) with (Some l). cbv iota. replace (l =? 0) with false by lia.
  change (rd (cl :: x) 0) with (Some cl). cbv iota zeta. replace (cl =? 0) with false by lia. replace (cl =? 16) with false by lia. reflexivity. Qed.

Lemma freq_list16_bm0 freq cd other : Zlength freq = 1024 -> Zlength cd = 16 -> 0 <= zn cd 0 < 64 ->
  freq_list16 freq cd other = Some (bm0_table freq cd).
Proof. intros Hf Hc Hb. unfold freq_list16. replace (Zlength freq <? 1024) with false by lia. rewrite rd_ok, format_bm0 by lia.
  replace (zn cd 0 <? 64) with true by lia. replace (Zlength cd <? 16) with false by lia. reflexivity. Qed.

Lemma freq_list16_other freq cd other : Zlength freq = 1024 -> 1 <= Zlength cd -> 64 <= zn cd 0 < 256 ->
  freq_list16 freq cd other = Some (other_table freq other).
Proof. intros Hf Hc Hb. unfold freq_list16. replace (Zlength freq <? 1024) with false by lia. rewrite rd_ok, format_bm0 by lia.
  replace (zn cd 0 <? 64) with false by lia. reflexivity. Qed.

(* a description of 16 octets: the branch without description, on the table the list decoder leaves *)
Lemma render_cd_16 l v cd other freq ma ma_len fr : l <> 0 -> freq_list16 freq cd other = Some fr ->
  render_ma_cd (l :: v) (16 :: cd) other freq ma ma_len = render_ma (l :: v) fr ma ma_len.
Proof. intros Hl E. unfold render_ma_cd, render_ma. change (rd (l :: v) 0) with (Some l). cbv iota. replace (l =? 0) with false by lia.
  change (rd (16 :: cd) 0) with (Some 16). cbv iota zeta. change (16 =? 0) with false. change (16 =? 16) with true. cbn [negb skipn].
  rewrite E. reflexivity. Qed.

Lemma render_cd_safe lv cdlv other freq ma ma_len : Zlength lv = 9 -> Zlength cdlv = 17 -> octets lv -> octets cdlv ->
  Zlength freq = 1024 -> Zlength ma = 64 -> exists rc s, render_ma_cd lv cdlv other freq ma ma_len = Ok rc s.
Proof. intros Hl Hc Ho Hoc Hf Hm. unfold render_ma_cd. rewrite rd_ok by lia.
  destruct (zn lv 0 =? 0); [eauto|]. rewrite rd_ok by lia. cbv zeta.
  destruct (zn cdlv 0 =? 0); [apply decode_checked_safe; assumption|]. destruct (negb (zn cdlv 0 =? 16)); [eauto|].
  unfold freq_list16. replace (Zlength freq <? 1024) with false by lia.
  assert (Hs : Zlength (skipn 1 cdlv) = 16) by (change 1%nat with (Z.to_nat 1); rewrite Zlength_skipn by lia; lia).
  rewrite rd_ok by lia. destruct (Z.land _ 206 =? 0).
  - replace (Zlength (skipn 1 cdlv) <? 16) with false by lia. apply decode_checked_safe; try assumption. apply bm0_table_length, Hf.
  - apply decode_checked_safe; try assumption. apply other_table_length, Hf. Qed.

(* non-vacuity: the serving cell has {5, 15, 25, 35}, the assignment's
   Cell Channel Description (bit map 0) lists {10, 20, 30, 40}, the Mobile Allocation 0f selects its four channels *)
Definition cd_10_20_30_40 : list Z := [0; 0; 0; 0; 0; 0; 0; 0; 0; 0; 0; 128; 32; 8; 2; 0].
Example ex_cd : match render_ma_cd [1; 15; 0; 0; 0; 0; 0; 0; 0] (16 :: cd_10_20_30_40) [] (tbl [5; 15; 25; 35] 64) (repeat 7 64) 9 with
                | Ok rc s => rc :: s_hlen s :: firstn 5 (s_hop s) ++ [zn (s_freq s) 5; zn (s_freq s) 10] | OOB => [-998] end
                = [0; 4; 10; 20; 30; 40; 7; 64; 65].
(* bm0_table enumerates range 0 1024 inside the model, so this run goes through the exact lemmas and evaluates the selection alone;
   every argument is written out: left to unification, the closed tables get evaluated (minutes) *)
Proof. rewrite (render_cd_16 1 [15; 0; 0; 0; 0; 0; 0; 0] cd_10_20_30_40 [] (tbl [5; 15; 25; 35] 64) (repeat 7 64) 9 (bm0_table (tbl [5; 15; 25; 35] 64) cd_10_20_30_40));
    [|discriminate|apply freq_list16_bm0; [apply tbl_length|reflexivity|vm_compute; intuition discriminate]].
  rewrite (render_exact 1 [15; 0; 0; 0; 0; 0; 0; 0] (bm0_table (tbl [5; 15; 25; 35] 64) cd_10_20_30_40) (repeat 7 64) 9);
    [|lia|vm_compute; discriminate|apply bm0_table_length, tbl_length|reflexivity].
  unfold spec_hopping. rewrite (cell_alloc_ext (bm0_table (tbl [5; 15; 25; 35] 64) cd_10_20_30_40) (bm0_has cd_10_20_30_40))
    by (intros a Ha; apply bm0_serving; [apply tbl_length|exact Ha]).
  vm_compute. reflexivity. Qed.
Example ex_cd_set : filter (bm0_has cd_10_20_30_40) (range 0 1024) = [10; 20; 30; 40].
Proof. rewrite range_upfrom. vm_compute. reflexivity. Qed.
(* without the description the same Mobile Allocation selects the serving cell's channels *)
Example ex_cd_absent : match render_ma_cd [1; 15; 0; 0; 0; 0; 0; 0; 0] (repeat 0 17) [] (tbl [5; 15; 25; 35] 64) (repeat 7 64) 9 with
                | Ok rc s => rc :: s_hlen s :: firstn 5 (s_hop s) | OOB => [-998] end = [0; 4; 5; 15; 25; 35; 7].
Proof. rewrite tbl_upfrom. vm_compute. reflexivity. Qed.
(* a description of 15 octets: abnormal, nothing touched *)
Example ex_cd_15 : match render_ma_cd [1; 15; 0; 0; 0; 0; 0; 0; 0] (15 :: cd_10_20_30_40) [] (tbl [5; 15; 25; 35] 64) (repeat 7 64) 9 with
                | Ok rc s => rc :: s_hlen s :: firstn 2 (s_hop s) ++ [zn (s_freq s) 5; zn (s_freq s) 10] | OOB => [-998] end = [1; 9; 7; 7; 65; 64].
Proof. rewrite tbl_upfrom. vm_compute. reflexivity. Qed.
