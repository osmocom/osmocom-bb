(* RxMsg: validation = protocol ranges; encoding succeeds exactly for what validates *)
From Coq Require Import ZArith List Bool Lia ZifyBool.
From OBB Require Import Gen.TrxdConst Model.Trxd Proofs.TrxdBase Proofs.TrxdTx.
Import ListNotations.
Open Scope Z_scope.

(* burst length of the i-th modulation (GMSK, 8-PSK, GMSK-AB, 16QAM, 32QAM, AQPSK), literal *)
Definition spec_mod_bl (i : nat) : Z := nth i [148; 444; 148; 592; 740; 296] 0.
Lemma mod_bl_spec i : mod_bl i = spec_mod_bl i.
Proof. unfold mod_bl, spec_mod_bl. rewrite gen_mods. do 6 (destruct i as [|i]; [reflexivity|]). destruct i; reflexivity. Qed.

Definition spec_mts (m : rxmsg) : Prop :=
  exists i s t, r_mod m = Some i /\ (i < 6)%nat /\ r_tset m = Some s /\ r_tsc m = Some t /\ 0 <= t <= 7 /\
                (if Nat.eqb i 0 then 0 <= s <= 3 else 0 <= s <= 1).
Definition spec_rx_burst (m : rxmsg) : Prop :=
  (r_ver m = 0 -> exists b, r_burst m = Some b /\ (length b = 148%nat \/ length b = 444%nat)) /\
  (r_ver m = 1 -> if r_nope m then r_burst m = None
                  else exists b i, r_burst m = Some b /\ r_mod m = Some i /\ Z.of_nat (length b) = spec_mod_bl i).
Definition spec_rx (m : rxmsg) : Prop :=
  spec_common (r_ver m) (r_fn m) (r_tn m)
  /\ (exists r, r_rssi m = Some r /\ -120 <= r <= -47)
  /\ (exists a, r_toa m = Some a /\ -32768 <= a <= 32767)
  /\ (r_ver m = 1 -> r_nope m = false -> spec_mts m)
  /\ (r_ver m = 1 -> exists c, r_ci m = Some c /\ -1280 <= c <= 1280)
  /\ spec_rx_burst m.

(* validate_burst reads mod_type.bl: AttributeError if there is no modulation, which the header checks exclude *)
Lemma validate_burst_rx_decides m : r_ver m = 0 \/ r_ver m = 1 -> (r_ver m = 1 -> r_nope m = false -> exists i, r_mod m = Some i) ->
  decides (validate_burst_rx m) (spec_rx_burst m).
Proof.
  intros Hv Hm. unfold validate_burst_rx, spec_rx_burst. destruct Hv as [E | E]; rewrite E in *.
  - eapply decides_ext; [apply burst_len_decides|].
    split; [intros H; split; [intros _; exact H|discriminate]|intros [H _]; exact (H eq_refl)].
  - change (1 =? 0) with false. change (1 >=? 1) with true. cbv iota.
    eapply decides_ext; [|split; [intros H; split; [discriminate|intros _; exact H]|intros [_ H]; exact (H eq_refl)]].
    destruct (r_nope m) eqn:En.
    + destruct (r_burst m); [apply decides_false; [discriminate|reflexivity]|left; split; reflexivity].
    + destruct (Hm eq_refl eq_refl) as [i ->].
      eapply decides_ext; [apply decides_some; intros b; apply decides_bool|]. split.
      * intros [b [Eb H]]. exists b, i. rewrite <- mod_bl_spec. repeat split; [exact Eb|lia].
      * intros (b & i' & Eb & Ei & H). injection Ei as <-. rewrite <- mod_bl_spec in H. exists b. split; [exact Eb|lia].
Qed.

Lemma validate_rx_decides m : decides (validate_rx m) (spec_rx m).
Proof.
  unfold validate_rx, spec_rx.
  apply decides_bind; [apply validate_common_decides|intros [Hv _]].
  apply decides_bind; [apply decides_in_rng|intros _].
  apply decides_bind; [apply decides_in_rng|intros _].
  apply decides_bind; [|intros Hm; apply decides_bind; [|intros _; apply validate_burst_rx_decides; [exact Hv|]]].
  - (* modulation and training sequence: version 1 without NOPE only *)
    destruct Hv as [-> | ->]; [left; split; [discriminate|reflexivity]|]. change (1 >=? 1) with true.
    destruct (r_nope m); cbn [andb negb]; [left; split; [discriminate|reflexivity]|].
    apply (decides_ext _ (spec_mts m)); [|split; [auto|intros H; exact (H eq_refl eq_refl)]]. unfold spec_mts.
    eapply decides_ext; [apply decides_some; intros i|].
    + destruct (Nat.ltb i (length mods)) eqn:Hi.
      * apply Nat.ltb_lt in Hi. apply decides_and; [exact Hi|].
        apply decides_bind; [|intros _; apply decides_in_rng].
        apply decides_some with (P := fun s => if Nat.eqb i 0 then 0 <= s <= 3 else 0 <= s <= 1). intros s. unfold GMSK_IDX.
        destruct (Nat.eqb i 0); (eapply decides_ext; [apply decides_bool|]); lia.
      * apply Nat.ltb_ge in Hi. apply decides_false; [intros [H _]; exact (proj1 (Nat.lt_nge _ _) H Hi)|reflexivity].
    + split.
      * intros (i & Ei & Hi & (s & Es & Hs) & (t & Et & Ht)). exists i, s, t. repeat split; try assumption; apply Ht.
      * intros (i & s & t & Ei & Hi & Es & Et & Ht & Hs). exists i. repeat split; try assumption; eauto.
  - destruct Hv as [-> | ->]; [left; split; [discriminate|reflexivity]|]. change (1 >=? 1) with true.
    eapply decides_ext; [apply decides_in_rng|]. split; [intros H _; exact H|intros H; exact (H eq_refl)].
  - intros E1 E2. destruct (Hm E1 E2) as (i & _ & _ & Ei & _). eauto.
Qed.

Lemma validate_rx_iff m : validate_rx m = Ok tt <-> spec_rx m.
Proof. exact (decides_iff _ _ (validate_rx_decides m)). Qed.
Lemma validate_rx_cases m : validate_rx m = Ok tt \/ validate_rx m = VErr.
Proof. exact (decides_cases _ _ (validate_rx_decides m)). Qed.

Lemma gen_rx_iff m l : (exists b, gen_rx l m = Ok b) <-> validate_rx m = Ok tt.
Proof. apply gen_iff. Qed.
Lemma gen_rx_cases m l : (exists b, gen_rx l m = Ok b) \/ gen_rx l m = VErr.
Proof. apply gen_cases, validate_rx_cases. Qed.
Lemma rx_encodable m l : spec_rx m -> exists b, gen_rx l m = Ok b.
Proof. intros H. apply gen_rx_iff, validate_rx_iff, H. Qed.
Lemma gen_rx_spec m l b : gen_rx l m = Ok b -> spec_rx m.
Proof. intros H. apply validate_rx_iff, (gen_rx_iff m l). eauto. Qed.

(* sizes: no modulation has a burst longer than 740, so no datagram is longer than 753 octets *)
Lemma spec_mod_bl_pos i : (i < 6)%nat -> 0 < spec_mod_bl i.
Proof. unfold spec_mod_bl. intros Hi. do 6 (destruct i as [|i]; [cbn [nth]; lia|]). lia. Qed.
Lemma spec_mod_bl_le i : spec_mod_bl i <= 740.
Proof. unfold spec_mod_bl. do 6 (destruct i as [|i]; [cbn [nth]; lia|]). destruct i; cbn [nth]; lia. Qed.

Lemma gen_rx_len m l b : gen_rx l m = Ok b ->
  (length b <= 13 + match r_burst m with Some bs => length bs | None => 0 end)%nat.
Proof.
  intros H. apply gen_inv in H as [_ ->]. unfold gen_common, be32, i16. cbv zeta. rewrite !app_length.
  destruct (r_ver m >=? 1); destruct (r_burst m); destruct (l && _); cbn [length app]; rewrite ?map_length; lia.
Qed.

Lemma rx_burst_le m : spec_rx m -> (match r_burst m with Some bs => length bs | None => 0 end <= 740)%nat.
Proof.
  intros [[Hv _] [_ [_ [_ [_ [H0 H1]]]]]]. destruct Hv as [Hv|Hv].
  - destruct (H0 Hv) as [b [-> Hl]]. lia.
  - specialize (H1 Hv). destruct (r_nope m).
    + rewrite H1. lia.
    + destruct H1 as [b [i [-> [_ Hl]]]]. pose proof (spec_mod_bl_le i). lia.
Qed.
