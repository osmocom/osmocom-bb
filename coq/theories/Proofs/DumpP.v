(* C15: capture files.  First the file object, headers, records and what stops a reader, for any octets that parse back;
   then the captures of valid TRXD messages (C01 round trips) and what the reads answer on them, cut or not. *)
From Coq Require Import ZArith List Bool Lia ZifyBool.
From OBB Require Import Base.Lists Gen.TrxdConst Model.Trxd Model.Dump Proofs.TrxdBase Proofs.TrxdTx Proofs.TrxdRx Proofs.TrxdRxRT Proofs.TrxdRecvSize.
Import ListNotations.
Open Scope Z_scope.

Lemma fread_shift pre f p n : fread (pre ++ f) (p + length pre) n = fread f p n.
Proof.
  unfold fread. rewrite skipn_app. rewrite skipn_all2 by lia.
  replace (p + length pre - length pre)%nat with p by lia. reflexivity.
Qed.

Lemma fread_exact a x : fread (a ++ x) 0 (length a) = a.
Proof. unfold fread. cbn [skipn]. apply firstn_app_len. reflexivity. Qed.

Lemma fread_beyond f p n : (length f <= p)%nat -> fread f p n = [].
Proof. intros H. unfold fread. rewrite skipn_all2 by exact H. apply firstn_nil. Qed.

Lemma fread_len f p n : (length (fread f p n) <= n)%nat.
Proof. unfold fread. rewrite firstn_length. lia. Qed.

(* the readers do not look behind the position: on pre ++ f from |pre| + p they do what they do on f from p,
   and the positions they return are moved by |pre| *)
Definition shiftS (d : nat) (r : res (option nat)) : res (option nat) :=
  match r with Ok (Some p) => Ok (Some (p + d)%nat) | x => x end.
Definition shiftO (d : nat) (r : res (one * nat)) : res (one * nat) :=
  match r with Ok (o, p) => Ok (o, (p + d)%nat) | x => x end.

Lemma seek_shift pre f : forall n p, seek_loop (pre ++ f) n (p + length pre) = shiftS (length pre) (seek_loop f n p).
Proof.
  induction n as [|k IH]; intros p; [reflexivity|].
  cbn [seek_loop]. rewrite fread_shift.
  destruct (negb (Nat.eqb (length (fread f p hl)) hl)); [reflexivity|].
  destruct (parse_hdr (fread f p hl)) as [[[b len]|]| |]; cbn [bind shiftS]; try reflexivity.
  rewrite <- IH. f_equal. lia.
Qed.

Lemma parse_one_shift pre f p : parse_one (pre ++ f) (p + length pre) = shiftO (length pre) (parse_one f p).
Proof.
  unfold parse_one. cbv zeta. rewrite fread_shift.
  replace (p + length pre + length (fread f p hl))%nat with (p + length (fread f p hl) + length pre)%nat by lia.
  destruct (negb (Nat.eqb (length (fread f p hl)) hl)); [reflexivity|].
  destruct (parse_hdr (fread f p hl)) as [[[b len]|]| |]; cbn [bind shiftO]; try reflexivity.
  rewrite fread_shift. destruct (negb (Nat.eqb _ len)); cbn [shiftO]; do 2 f_equal; lia.
Qed.

Lemma pa_shift pre f count : forall fuel p acc, pa_loop fuel (pre ++ f) (p + length pre) count acc = pa_loop fuel f p count acc.
Proof.
  induction fuel as [|k IH]; intros p acc; [reflexivity|].
  cbn [pa_loop]. rewrite parse_one_shift.
  destruct (parse_one f p) as [[o q]| |]; cbn [shiftO bind]; try reflexivity.
  destruct o as [m| |]; [|reflexivity|apply IH].
  destruct (count_hit count (length (acc ++ [m]))); [reflexivity|apply IH].
Qed.

Lemma seek_add f : forall a b p, seek_loop f (a + b) p = match seek_loop f a p with Ok (Some q) => seek_loop f b q | x => x end.
Proof.
  induction a as [|a IH]; intros b p; [reflexivity|].
  cbn [Nat.add seek_loop].
  destruct (negb (Nat.eqb (length (fread f p hl)) hl)); [reflexivity|].
  destruct (parse_hdr (fread f p hl)) as [[[bb len]|]| |]; cbn [bind]; try reflexivity.
  apply IH.
Qed.

Lemma seek_beyond f k p : (length f <= p)%nat -> seek_loop f (S k) p = Ok None.
Proof. intros H. cbn [seek_loop]. rewrite fread_beyond by exact H. reflexivity. Qed.
Lemma parse_one_beyond f p : (length f <= p)%nat -> exists q, parse_one f p = Ok (ONone, q).
Proof. intros H. unfold parse_one. cbv zeta. rewrite fread_beyond by exact H. eexists. reflexivity. Qed.
Lemma pa_beyond f p count acc k : (length f <= p)%nat -> pa_loop (S k) f p count acc = Ok (PList acc).
Proof. intros H. cbn [pa_loop]. destruct (parse_one_beyond f p H) as [q ->]. reflexivity. Qed.

Definition hdr_of (is_rx : bool) (n : nat) : list Z :=
  [if is_rx then dump_tag_rx else dump_tag_tx; Z.of_nat n / 256; Z.of_nat n mod 256].

Lemma parse_hdr_of b n : Z.of_nat n < 65536 -> parse_hdr (hdr_of b n) = Ok (Some (b, n)).
Proof.
  intros Hn. unfold parse_hdr, hdr_of, slice. cbn [skipn firstn Nat.sub bind].
  rewrite Z.mul_comm, <- Z.div_mod, Nat2Z.id by lia. destruct b; reflexivity.
Qed.

(* a reader positioned at a header that announces n octets: the body is what follows, as far as it goes *)
Lemma parse_one_hdr b n body : Z.of_nat n < 65536 ->
  parse_one (hdr_of b n ++ body) 0 =
  Ok (if Nat.eqb (length (firstn n body)) n then parse_body b (firstn n body) else ONone, (3 + length (firstn n body))%nat).
Proof.
  intros Hn. unfold parse_one. cbv zeta. rewrite (fread_exact (hdr_of b n) body : fread _ 0 hl = _).
  change (Nat.eqb (length (hdr_of b n)) hl) with true. cbn [negb]. rewrite parse_hdr_of by exact Hn. cbn [bind].
  rewrite (fread_shift (hdr_of b n) body 0 n : fread _ (0 + length (hdr_of b n)) n = _).
  change (fread body 0 n) with (firstn n body). destruct (Nat.eqb _ n); reflexivity.
Qed.

Lemma seek_hdr b n body k : Z.of_nat n < 65536 ->
  seek_loop (hdr_of b n ++ body) (S k) 0 = seek_loop (hdr_of b n ++ body) k (3 + n).
Proof.
  intros Hn. cbn [seek_loop]. rewrite (fread_exact (hdr_of b n) body : fread _ 0 hl = _).
  change (Nat.eqb (length (hdr_of b n)) hl) with true. cbn [negb]. rewrite parse_hdr_of by exact Hn. reflexivity.
Qed.

Lemma parse_one_rec b raw rest : Z.of_nat (length raw) < 65536 ->
  parse_one ((hdr_of b (length raw) ++ raw) ++ rest) 0 = Ok (parse_body b raw, (3 + length raw)%nat).
Proof.
  intros Hn. rewrite <- app_assoc, parse_one_hdr by exact Hn.
  rewrite firstn_app_len by reflexivity. rewrite Nat.eqb_refl. reflexivity.
Qed.

Lemma pa_rec b raw rest fuel count acc : Z.of_nat (length raw) < 65536 ->
  pa_loop (S fuel) ((hdr_of b (length raw) ++ raw) ++ rest) 0 count acc =
  match parse_body b raw with
  | OMsg m => if count_hit count (S (length acc)) then Ok (PList (acc ++ [m])) else pa_loop fuel rest 0 count (acc ++ [m])
  | ONone => Ok (PList acc)
  | OFalse => pa_loop fuel rest 0 count acc
  end.
Proof.
  intros Hn. cbn [pa_loop]. rewrite parse_one_rec by exact Hn. cbn [bind].
  pose proof (fun a => pa_shift (hdr_of b (length raw) ++ raw) rest count fuel 0 a) as E.
  rewrite app_length in E. change (0 + (length (hdr_of b (length raw)) + length raw))%nat with (3 + length raw)%nat in E.
  destruct (parse_body b raw) as [m| |]; [|reflexivity|apply E].
  rewrite app_length, Nat.add_1_r, E. reflexivity.
Qed.

Definition good_rec (r : list Z) (m' : msg) : Prop :=
  exists is_rx raw, r = hdr_of is_rx (length raw) ++ raw /\ Z.of_nat (length raw) < 65536 /\ parse_body is_rx raw = OMsg m'.

Lemma seek_good r m' rest k : good_rec r m' -> seek_loop (r ++ rest) (S k) 0 = shiftS (length r) (seek_loop rest k 0).
Proof.
  intros [b [raw [-> [Hn _]]]]. rewrite <- app_assoc, seek_hdr, app_assoc by exact Hn.
  rewrite <- (seek_shift _ rest k 0), app_length. reflexivity.
Qed.

(* what stops a reader: less than a header, or a header that announces more octets than follow *)
Definition stops (t : list Z) : Prop :=
  (length t < 3)%nat \/ exists b n body, t = hdr_of b n ++ body /\ (length body < n)%nat /\ Z.of_nat n < 65536.

Lemma stops_nil : stops [].
Proof. left. cbn [length]. lia. Qed.

Lemma stops_cut r m' k : good_rec r m' -> (k < length r)%nat -> stops (firstn k r).
Proof.
  intros [b [raw [-> [Hn _]]]] Hk. rewrite app_length in Hk. change (length (hdr_of b (length raw))) with 3%nat in Hk.
  destruct (Nat.ltb k 3) eqn:E; [apply Nat.ltb_lt in E; left; rewrite firstn_length; lia|apply Nat.ltb_ge in E; right].
  exists b, (length raw), (firstn (k - 3) raw). rewrite firstn_app, firstn_all2, firstn_length by (cbn [hdr_of length]; lia).
  repeat split; [|exact Hn]. lia.
Qed.

Lemma short_hdr t : (length t < 3)%nat -> Nat.eqb (length (fread t 0 hl)) hl = false.
Proof. intros H. apply Nat.eqb_neq. unfold fread. cbn [skipn]. rewrite firstn_length. change hl with 3%nat. lia. Qed.

Lemma stops_parse_one t : stops t -> exists p, parse_one t 0 = Ok (ONone, p).
Proof.
  intros [H|(b & n & body & -> & Hl & Hn)].
  - unfold parse_one. cbv zeta. rewrite (short_hdr t H). eexists. reflexivity.
  - rewrite parse_one_hdr, firstn_all2 by lia. rewrite (proj2 (Nat.eqb_neq _ _)) by lia. eexists. reflexivity.
Qed.

Lemma seek_short t k : (length t < 3)%nat -> seek_loop t (S k) 0 = Ok None.
Proof. intros H. cbn [seek_loop]. rewrite (short_hdr t H). reflexivity. Qed.

(* _seek2msg reads the header of a cut record, seeks beyond the end of the file and reports success *)
Lemma seek_long t : stops t -> (3 <= length t)%nat -> exists p, seek_loop t 1 0 = Ok (Some p) /\ (length t < p)%nat.
Proof.
  intros [H|(b & n & body & -> & Hl & Hn)] H3; [lia|]. rewrite seek_hdr by exact Hn. eexists. split; [reflexivity|].
  rewrite app_length. cbn [hdr_of length]. lia.
Qed.

Lemma seek_stops t j : stops t -> seek_loop t (S (S j)) 0 = Ok None.
Proof.
  intros [H|(b & n & body & -> & Hl & Hn)]; [apply seek_short, H|]. rewrite seek_hdr by exact Hn.
  apply seek_beyond. rewrite app_length. cbn [hdr_of length]. lia.
Qed.

(* count semantics: what parse_all, having collected n messages, keeps of the messages it meets.
   'if len(result) == count: break' is tested after each append, so a count <= n never matches *)
Definition takec (count : option Z) (n : nat) (l : list msg) : list msg :=
  match count with Some c => if c <=? Z.of_nat n then l else firstn (Z.to_nat c - n) l | None => l end.

Lemma takec_cons count n m l : takec count n (m :: l) = if count_hit count (S n) then [m] else m :: takec count (S n) l.
Proof.
  destruct count as [c|]; [|reflexivity]. cbn [takec count_hit].
  destruct (Z.of_nat (S n) =? c) eqn:E1; destruct (c <=? Z.of_nat n) eqn:E2; destruct (c <=? Z.of_nat (S n)) eqn:E3; try lia.
  - replace (Z.to_nat c - n)%nat with 1%nat by lia. reflexivity.
  - reflexivity.
  - replace (Z.to_nat c - n)%nat with (S (Z.to_nat c - S n)) by lia. reflexivity.
Qed.

Lemma takec_nil count n : takec count n [] = [].
Proof. destruct count as [c|]; [|reflexivity]. cbn [takec]. destruct (_ <=? _); [reflexivity|apply firstn_nil]. Qed.

(* literal reading: count >= 1 keeps the first count messages; count <= 0 never stops the loop *)
Definition sel (count : option Z) (l : list msg) : list msg :=
  match count with Some c => if 1 <=? c then firstn (Z.to_nat c) l else l | None => l end.
Lemma takec_sel count l : takec count 0 l = sel count l.
Proof.
  destruct count as [c|]; [|reflexivity]. cbn [takec sel]. rewrite Nat.sub_0_r.
  destruct (c <=? Z.of_nat 0) eqn:E1; destruct (1 <=? c) eqn:E2; try lia; reflexivity.
Qed.

(* cutting a file of records: how many of them end at or before octet k *)
Fixpoint ncomplete (rs : list (list Z)) (k : nat) : nat :=
  match rs with
  | [] => 0
  | r :: rest => if Nat.leb (length r) k then S (ncomplete rest (k - length r)) else 0
  end.

Lemma ncomplete_le rs : forall k, (ncomplete rs k <= length rs)%nat.
Proof. induction rs as [|r rs IH]; intros k; cbn [ncomplete length]; [lia|]. destruct (Nat.leb _ _); [specialize (IH (k - length r)%nat)|]; lia. Qed.

Lemma ncomplete_spec rs : forall k,
  (length (concat (firstn (ncomplete rs k) rs)) <= k)%nat /\
  ((ncomplete rs k < length rs)%nat -> (k < length (concat (firstn (S (ncomplete rs k)) rs)))%nat).
Proof.
  induction rs as [|r rs IH]; intros k; cbn [ncomplete]; [cbn; lia|].
  destruct (Nat.leb (length r) k) eqn:E.
  - apply Nat.leb_le in E. destruct (IH (k - length r)%nat) as [A B].
    cbn [firstn concat length] in *. rewrite !app_length. split; [lia|]. intros Hlt. specialize (B ltac:(lia)). lia.
  - apply Nat.leb_gt in E. cbn [firstn concat length]. split; [lia|]. intros _. rewrite app_length. lia.
Qed.

(* valid messages: the protocol ranges of C01 / C13; Rx soft bits in [-127, 127] *)
Definition vmsg (m : msg) : Prop :=
  match m with inl t => spec_tx t | inr r => spec_rx r /\ soft_ok r end.
(* the fields a message carries on the wire (all of a TxMsg; 'carried' of an RxMsg) *)
Definition cmsg (m : msg) : msg :=
  match m with inl t => inl t | inr r => inr (carried r) end.
Definition rec_of (m : msg) : list Z := match dump_msg m with Ok r => r | _ => [] end.
Definition file (ms : list msg) : list Z := concat (map rec_of ms).

Definition is_rx_msg (m : msg) : bool := match m with inl _ => false | inr _ => true end.
Definition gen_of (m : msg) : res (list Z) := match m with inl t => gen_tx false t | inr r => gen_rx false r end.
(* what reading the record of m yields *)
Definition read_back (m : msg) : msg :=
  match gen_of m with
  | Ok raw => match parse_body (is_rx_msg m) raw with OMsg m' => m' | _ => m end
  | _ => m
  end.

Lemma vmsg_codec m : vmsg m ->
  exists raw m', gen_of m = Ok raw /\ (length raw <= 753)%nat /\ parse_body (is_rx_msg m) raw = OMsg m' /\ cmsg m' = cmsg m.
Proof.
  destruct m as [t|r]; cbn [vmsg gen_of is_rx_msg parse_body].
  - intros Hs. destruct (tx_encodable t false Hs) as [b Hb]. exists b, (inl t). rewrite (tx_roundtrip _ _ _ Hb).
    repeat split; [exact Hb|]. pose proof (proj1 (gen_tx_fits _ _ _ Hb)). lia.
  - intros [Hs Hsoft]. destruct (rx_encodable r false Hs) as [b Hb]. destruct (rx_roundtrip _ _ _ Hsoft Hb) as [r' [Hp Hc]].
    exists b, (inr r'). rewrite Hp. cbn [cmsg]. rewrite Hc. repeat split; [exact Hb|].
    pose proof (gen_rx_len _ _ _ Hb). pose proof (rx_burst_le _ Hs). lia.
Qed.

Lemma dump_msg_gen m : dump_msg m =
  (raw <- gen_of m ;; if 65535 <? Z.of_nat (length raw) then Crash else Ok (hdr_of (is_rx_msg m) (length raw) ++ raw)).
Proof. destruct m; reflexivity. Qed.

Lemma rec_good m : vmsg m ->
  exists raw, gen_of m = Ok raw /\ (length raw <= 753)%nat /\ dump_msg m = Ok (hdr_of (is_rx_msg m) (length raw) ++ raw) /\
              parse_body (is_rx_msg m) raw = OMsg (read_back m) /\ cmsg (read_back m) = cmsg m.
Proof.
  intros H. destruct (vmsg_codec m H) as (raw & m' & Eg & Hl & Hp & Hc). exists raw.
  replace (read_back m) with m' by (unfold read_back; rewrite Eg, Hp; reflexivity). repeat split; try assumption.
  rewrite dump_msg_gen, Eg. cbn [bind]. destruct (65535 <? _) eqn:E; [lia|reflexivity].
Qed.

Lemma dump_rec m : vmsg m -> dump_msg m = Ok (rec_of m).
Proof. intros H. destruct (rec_good m H) as [raw [_ [_ [Ed _]]]]. unfold rec_of. rewrite Ed. reflexivity. Qed.

Lemma rec_of_good m : vmsg m -> good_rec (rec_of m) (read_back m).
Proof.
  intros H. destruct (rec_good m H) as [raw [_ [Hl [Ed [Hp _]]]]]. unfold rec_of. rewrite Ed.
  exists (is_rx_msg m), raw. repeat split; [lia|exact Hp].
Qed.

Lemma back_carried m : vmsg m -> cmsg (read_back m) = cmsg m.
Proof. intros H. destruct (rec_good m H) as [raw [_ [_ [_ [_ E]]]]]. exact E. Qed.

Lemma back_cmsg ms : Forall vmsg ms -> map cmsg (map read_back ms) = map cmsg ms.
Proof. induction 1 as [|m ms Hm _ IH]; cbn [map]; [reflexivity|]. rewrite (back_carried m Hm), IH. reflexivity. Qed.

Lemma file_app a b : file (a ++ b) = file a ++ file b.
Proof. unfold file. rewrite map_app, concat_app. reflexivity. Qed.

Lemma append_app ms rest f0 : Forall vmsg ms -> append_all f0 (ms ++ rest) = append_all (f0 ++ file ms) rest.
Proof.
  intros H. revert f0. induction H as [|m ms Hm _ IH]; intros f0; [rewrite app_nil_r; reflexivity|].
  cbn [app append_all]. unfold append_msg at 1. rewrite (dump_rec m Hm). cbn [bind]. rewrite IH, <- app_assoc. reflexivity.
Qed.

Lemma dump_invalid m : match m with inl t => ~ spec_tx t | inr r => ~ spec_rx r end -> dump_msg m = VErr.
Proof.
  destruct m as [t|r]; intros H; unfold dump_msg, gen_tx, gen_rx.
  - rewrite (decides_not _ _ (validate_tx_decides t) H). reflexivity.
  - rewrite (decides_not _ _ (validate_rx_decides r) H). reflexivity.
Qed.

Lemma seek_to ms rest : Forall vmsg ms -> seek_loop (file ms ++ rest) (length ms) 0 = Ok (Some (length (file ms))).
Proof.
  induction 1 as [|m ms Hm _ IH]; [reflexivity|].
  change (file (m :: ms)) with (rec_of m ++ file ms). cbn [length]. rewrite <- app_assoc.
  rewrite (seek_good _ _ _ _ (rec_of_good m Hm)), IH, app_length, Nat.add_comm. reflexivity.
Qed.

Lemma seek_file ms rest j : Forall vmsg ms ->
  seek_loop (file ms ++ rest) (length ms + j) 0 = shiftS (length (file ms)) (seek_loop rest j 0).
Proof. intros H. rewrite seek_add, (seek_to ms rest H). apply (seek_shift (file ms) rest j 0). Qed.

Lemma file_count ms : Forall vmsg ms -> (length ms <= length (file ms))%nat.
Proof.
  induction 1 as [|m ms Hm _ IH]; [apply Nat.le_refl|]. change (file (m :: ms)) with (rec_of m ++ file ms).
  destruct (rec_of_good m Hm) as [b [raw [E _]]]. rewrite E, !app_length. cbn [hdr_of length]. lia.
Qed.

Lemma pa_file ms t count : Forall vmsg ms -> stops t -> forall fuel acc, (length ms < fuel)%nat ->
  pa_loop fuel (file ms ++ t) 0 count acc = Ok (PList (acc ++ takec count (length acc) (map read_back ms))).
Proof.
  intros H Ht. induction H as [|m ms Hm _ IH]; intros fuel acc Hf; (destruct fuel as [|k]; [cbn [length] in Hf; lia|]).
  - destruct (stops_parse_one t Ht) as [p Hp]. cbn [file map concat app pa_loop]. rewrite Hp, takec_nil, app_nil_r. reflexivity.
  - change (file (m :: ms)) with (rec_of m ++ file ms). destruct (rec_of_good m Hm) as [b [raw [E [Hn Hp]]]].
    rewrite <- app_assoc, E, pa_rec, Hp by exact Hn.
    cbn [map]. rewrite takec_cons. destruct (count_hit count (S (length acc))); [reflexivity|].
    rewrite IH by (cbn [length] in Hf; lia). rewrite app_length, Nat.add_1_r, <- app_assoc. reflexivity.
Qed.

Definition from_of (skip : option Z) : nat := match skip with Some s => Z.to_nat s | None => 0%nat end.
Lemma parse_all_from f skip count : parse_all f skip count =
  (rc <- seek_loop f (from_of skip) 0 ;; match rc with None => Ok PFalse | Some pos => pa_loop (S (length f)) f pos count [] end).
Proof. destruct skip; reflexivity. Qed.

(* what the reads answer on a capture f holding the records of cs and 'rest' octets of an unfinished one: they answer
   for cs, but for skip = |cs| + 1 with a whole header left (see seek_long) parse_all returns [], not False *)
Definition slice_answer (f : list Z) (cs : list msg) (rest : nat) (skip count : option Z) : Prop :=
  (match skip with Some s => s <= Z.of_nat (length cs) | None => True end ->
     exists ms', parse_all f skip count = Ok (PList ms') /\
                 map cmsg ms' = map cmsg (sel count (skipn (from_of skip) cs))) /\
  (match skip with Some s => s = Z.of_nat (length cs) + 1 /\ (3 <= rest)%nat | None => False end ->
     parse_all f skip count = Ok (PList [])) /\
  (match skip with Some s => Z.of_nat (length cs) < s /\ ((rest < 3)%nat \/ Z.of_nat (length cs) + 1 < s) | None => False end ->
     parse_all f skip count = Ok PFalse).
Definition index_answer (f : list Z) (cs : list msg) (i : Z) : Prop :=
  (0 <= i < Z.of_nat (length cs) ->
     exists m m', nth_error cs (Z.to_nat i) = Some m /\ parse_msg f i = Ok (OMsg m') /\ cmsg m' = cmsg m) /\
  (Z.of_nat (length cs) <= i -> parse_msg f i = Ok ONone).

Theorem read_slice cs t skip count : Forall vmsg cs -> stops t -> slice_answer (file cs ++ t) cs (length t) skip count.
Proof.
  intros H Ht. unfold slice_answer. split; [|split].
  - (* seek over the first i records, read the others *)
    intros Hs. rewrite parse_all_from.
    assert (Hi : (from_of skip <= length cs)%nat) by (destruct skip; cbn [from_of]; lia). revert Hi. generalize (from_of skip). intros i Hi.
    pose proof (firstn_skipn i cs) as E. pose proof (firstn_length_le cs Hi) as El.
    set (c1 := firstn i cs) in *. set (c2 := skipn i cs) in *. clearbody c1 c2. subst cs. apply Forall_app in H as [H1 H2].
    rewrite file_app, <- app_assoc, <- El, (seek_to c1 _ H1). cbn [bind].
    rewrite (pa_shift (file c1) _ count _ 0), (pa_file _ _ count H2 Ht) by (pose proof (file_count _ H2); rewrite !app_length; lia).
    cbn [app length]. rewrite takec_sel. eexists. split; [reflexivity|].
    unfold sel. destruct count as [c|]; [destruct (1 <=? c)|]; rewrite <- ?firstn_map, (back_cmsg _ H2); reflexivity.
  - destruct skip as [s|]; [|intros []]. intros [Hs Hl]. unfold parse_all, seek2msg.
    replace (Z.to_nat s) with (length cs + 1)%nat by lia. rewrite (seek_file cs t 1 H).
    destruct (seek_long t Ht Hl) as [p [-> Hp]]. cbn [shiftS bind]. apply pa_beyond. rewrite app_length. lia.
  - destruct skip as [s|]; [|intros []]. intros [Hs Hc]. unfold parse_all, seek2msg.
    replace (Z.to_nat s) with (length cs + S (Z.to_nat s - length cs - 1))%nat by lia. rewrite (seek_file cs t _ H).
    destruct (Z.to_nat s - length cs - 1)%nat as [|j] eqn:Ej.
    + destruct Hc as [Hc|Hc]; [|lia]. rewrite (seek_short t 0 Hc). reflexivity.
    + rewrite (seek_stops t j Ht). reflexivity.
Qed.

Theorem read_index cs t i : Forall vmsg cs -> stops t -> index_answer (file cs ++ t) cs i.
Proof.
  intros H Ht. unfold index_answer, parse_msg, seek2msg. split; intros Hi.
  - (* cs = c1 ++ m :: c2 with i messages in c1: seek over c1, read the record of m *)
    destruct (nth_error cs (Z.to_nat i)) as [m|] eqn:En; [|apply nth_error_None in En; lia].
    destruct (nth_error_split _ _ En) as (c1 & c2 & -> & El). apply Forall_app in H as [H1 H2]. inversion H2 as [|? ? Hm _]. subst.
    exists m, (read_back m). split; [reflexivity|]. split; [|exact (back_carried m Hm)].
    rewrite file_app, <- app_assoc. change (file (m :: c2)) with (rec_of m ++ file c2). rewrite <- app_assoc.
    rewrite <- El, (seek_to c1 _ H1). cbn [bind]. destruct (rec_of_good m Hm) as [b [raw [E [Hn Hp]]]].
    rewrite (parse_one_shift (file c1) _ 0), E, parse_one_rec, Hp by exact Hn. reflexivity.
  - replace (Z.to_nat i) with (length cs + (Z.to_nat i - length cs))%nat by lia. rewrite (seek_file cs t _ H).
    destruct (Z.to_nat i - length cs)%nat as [|[|j]].
    + cbn [seek_loop shiftS bind]. rewrite (parse_one_shift (file cs) t 0). destruct (stops_parse_one t Ht) as [p ->]. reflexivity.
    + destruct (Nat.ltb (length t) 3) eqn:E.
      * apply Nat.ltb_lt in E. rewrite (seek_short t 0 E). reflexivity.
      * apply Nat.ltb_ge in E. destruct (seek_long t Ht E) as [p [-> Hp]]. cbn [shiftS bind].
        destruct (parse_one_beyond (file cs ++ t) (p + length (file cs))) as [q ->]; [rewrite app_length; lia|reflexivity].
    + rewrite (seek_stops t j Ht). reflexivity.
Qed.

Theorem full_read ms : Forall vmsg ms ->
  exists ms', parse_all (file ms) None None = Ok (PList ms') /\ map cmsg ms' = map cmsg ms.
Proof. intros H. destruct (read_slice ms [] None None H stops_nil) as [A _]. rewrite app_nil_r in A. exact (A I). Qed.

Theorem index_read ms i : Forall vmsg ms -> index_answer (file ms) ms i.
Proof. intros H. pose proof (read_index ms [] i H stops_nil) as R. rewrite app_nil_r in R. exact R. Qed.

Definition complete (ms : list msg) (k : nat) : list msg := firstn (ncomplete (map rec_of ms) k) ms.

Lemma cut_file ms k : Forall vmsg ms ->
  Forall vmsg (complete ms k) /\ exists t, firstn k (file ms) = file (complete ms k) ++ t /\ stops t.
Proof.
  unfold complete. intros H. revert k. induction H as [|m ms Hm H IH]; intros k.
  - split; [constructor|]. exists []. rewrite firstn_nil. split; [reflexivity|apply stops_nil].
  - change (file (m :: ms)) with (rec_of m ++ file ms). cbn [map ncomplete]. rewrite firstn_app.
    destruct (Nat.leb (length (rec_of m)) k) eqn:E.
    + apply Nat.leb_le in E. destruct (IH (k - length (rec_of m))%nat) as [Hc [t [Et Ht]]]. cbn [firstn].
      split; [constructor; assumption|]. exists t. split; [|exact Ht].
      rewrite firstn_all2, Et by exact E. apply app_assoc.
    + apply Nat.leb_gt in E. split; [constructor|]. exists (firstn k (rec_of m)).
      split; [|apply (stops_cut _ _ _ (rec_of_good m Hm) E)].
      replace (k - length (rec_of m))%nat with 0%nat by lia. apply app_nil_r.
Qed.

(* non-vacuity: a mixed capture (Tx v1 8-PSK, Rx v1 NOPE, Rx v1 GMSK-AB, Rx v0) *)
Definition ex_tx : txmsg := {| t_ver := 1; t_fn := Some 2715647; t_tn := Some 7; t_pwr := Some 255; t_burst := Some (repeat 1 444) |}.
Definition ex_nope : rxmsg := {| r_ver := 1; r_fn := Some 0; r_tn := Some 0; r_rssi := Some (-47); r_toa := Some 32767;
                                 r_nope := true; r_mod := None; r_tset := None; r_tsc := None; r_ci := Some 1280; r_burst := None |}.
Definition ex_rx : rxmsg := {| r_ver := 1; r_fn := Some 2715647; r_tn := Some 7; r_rssi := Some (-120); r_toa := Some (-32768);
                               r_nope := false; r_mod := Some 2%nat; r_tset := Some 1; r_tsc := Some 7; r_ci := Some (-1280);
                               r_burst := Some (repeat (-127) 148) |}.
Definition ex_rx0 : rxmsg := {| r_ver := 0; r_fn := Some 65536; r_tn := Some 3; r_rssi := Some (-60); r_toa := Some (-1);
                                r_nope := false; r_mod := Some 0%nat; r_tset := None; r_tsc := None; r_ci := None;
                                r_burst := Some (repeat 127 148) |}.
Definition ex_ms : list msg := [inl ex_tx; inr ex_nope; inr ex_rx; inr ex_rx0].

Lemma soft_repeat x n : -127 <= x <= 127 -> Forall (fun s => -127 <= s <= 127) (repeat x n).
Proof. intros Hx. apply Forall_forall. intros y Hy. apply repeat_spec in Hy. lia. Qed.

Example ex_valid : Forall vmsg ex_ms.
Proof.
  unfold ex_ms. apply Forall_cons; [|apply Forall_cons; [|apply Forall_cons; [|apply Forall_cons; [|apply Forall_nil]]]]; cbn [vmsg].
  - apply validate_tx_iff. vm_compute. reflexivity.
  - split; [apply validate_rx_iff; vm_compute; reflexivity|exact I].
  - split; [apply validate_rx_iff; vm_compute; reflexivity|]. unfold soft_ok, ex_rx. cbn [r_burst]. apply soft_repeat. lia.
  - split; [apply validate_rx_iff; vm_compute; reflexivity|]. unfold soft_ok, ex_rx0. cbn [r_burst]. apply soft_repeat. lia.
Qed.
Example ex_cuts : length (file ex_ms) = 788%nat /\ complete ex_ms 787 = firstn 3 ex_ms /\ complete ex_ms 788 = ex_ms
                  /\ complete ex_ms 452 = [] /\ complete ex_ms 453 = [inl ex_tx].
Proof. vm_compute. repeat split; reflexivity. Qed.

Lemma skipn_nth {A} (l : list A) : forall i x r, skipn i l = x :: r -> nth_error l i = Some x.
Proof. induction l as [|y l IH]; intros [|i] x r H; cbn in *; try discriminate; [congruence|eauto]. Qed.
