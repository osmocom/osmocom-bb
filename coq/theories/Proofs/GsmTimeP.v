(* GSM time (C19): decomp is the specification's (T1, T2, T3, TC) of a frame number, fn2gsmtime / time_inc / gsmtime2fn the C side.
   H below is a constant, the hyperframe, not a hypothesis: `unfold H` in the proofs means it. *)
From Coq Require Import ZArith List Bool Lia.
From OBB Require Import Gen.GsmTimeConst Model.GsmTime.
Import ListNotations.
Open Scope Z_scope.

Definition H : Z := 2715648.

Lemma const_c : c_GSM_MAX_FN = 2715648. Proof. reflexivity. Qed.
Lemma const_py : py_GSM_HYPERFRAME = 2715648. Proof. reflexivity. Qed.

(* the decomposition the specification speaks about: T1 = FN div 1326, T2 = FN mod 26, T3 = FN mod 51, TC = (FN div 51) mod 8 *)
Definition decomp (f : Z) : gt := {| g_fn := f; g_t1 := f / 1326; g_t2 := f mod 26; g_t3 := f mod 51; g_tc := (f / 51) mod 8 |}.

Lemma fn2gsmtime_decomp f : 0 <= f < H -> fn2gsmtime f = decomp f.
Proof.
  unfold fn2gsmtime, decomp, u16, H. intros Hf.
  rewrite !Z.quot_div_nonneg, !Z.rem_mod_nonneg by (try apply Z.div_pos; lia).
  change (26 * 51) with 1326. rewrite (Z.mod_small (f / 1326)); [reflexivity|].
  split; [apply Z.div_pos; lia|apply Z.div_lt_upper_bound; lia].
Qed.

(* ADD_MODULO in a C type of W values: when the sum stays below twice the modulus and W, no wrap happens
   and one conditional subtraction reduces it *)
Lemma add_modulo_small W s d m : 2 * m <= W -> 0 <= s + d < 2 * m ->
  add_modulo (fun x => x mod W) s d m = (s + d) mod m.
Proof.
  intros HW Hs. unfold add_modulo. rewrite (Z.mod_small (s + d)) by lia.
  destruct (s + d >=? m) eqn:E.
  - rewrite Z.mod_small by lia. apply (Z.mod_unique _ _ 1); lia.
  - rewrite Z.mod_small; lia.
Qed.

Lemma mod_mul_div a b c : 0 < b -> 0 < c -> (a mod (b * c)) / b = (a / b) mod c.
Proof.
  intros Hb Hc. rewrite Z.rem_mul_r, Z.mul_comm, Z.div_add, Z.mod_div by lia. reflexivity.
Qed.

Lemma mod_mul_mod a b c : 0 < b -> 0 < c -> (a mod (b * c)) mod b = a mod b.
Proof.
  intros Hb Hc. rewrite Z.rem_mul_r, Z.mul_comm, Z.mod_add, Z.mod_mod by lia. reflexivity.
Qed.

Lemma div_succ f m : 0 < m -> (f + 1) / m = if (f + 1) mod m =? 0 then f / m + 1 else f / m.
Proof.
  intros Hm. pose proof (Z.div_mod (f + 1) m ltac:(lia)) as E. pose proof (Z.mod_pos_bound (f + 1) m Hm) as B.
  destruct (_ =? 0) eqn:Z0.
  - assert (f / m = (f + 1) / m - 1) by (symmetry; apply (Z.div_unique f m _ (m - 1)); lia). lia.
  - apply (Z.div_unique f m _ ((f + 1) mod m - 1)); lia.
Qed.

Lemma mod_1326 a : (a mod 1326 =? 0) = (a mod 51 =? 0) && (a mod 26 =? 0).
Proof. Z.to_euclidean_division_equations. lia. Qed.

(* the hyperframe is a whole number of 26-, 51-multiframes and superframes, and 2048 superframes long *)
Lemma decomp_mod a : decomp (a mod H) =
  {| g_fn := a mod H; g_t1 := (a / 1326) mod 2048; g_t2 := a mod 26; g_t3 := a mod 51; g_tc := (a / 51) mod 8 |}.
Proof.
  unfold decomp. f_equal.
  - apply (mod_mul_div a 1326 2048); lia.
  - apply (mod_mul_mod a 26 104448); lia.
  - apply (mod_mul_mod a 51 53248); lia.
  - change H with (51 * 53248). rewrite mod_mul_div by lia. apply (mod_mul_mod (a / 51) 8 6656); lia.
Qed.

Lemma inc1 f : 0 <= f < H -> time_inc (decomp f) 1 = decomp ((f + 1) mod H).
Proof.
  intros Hf. unfold H in Hf. rewrite decomp_mod. unfold time_inc, decomp. cbn [g_fn g_t1 g_t2 g_t3 g_tc].
  rewrite const_c. change (1 =? 1) with true. cbv iota.
  (* no ADD_MODULO wraps in its C type, so each field is its successor modulo its period; TC and T1 are carried
     exactly when the quotients by 51 and by 1326 = 26 * 51 step *)
  pose proof (Z.mod_pos_bound f 26 eq_refl). pose proof (Z.mod_pos_bound f 51 eq_refl).
  pose proof (Z.mod_pos_bound (f / 51) 8 eq_refl).
  assert (Ht1 : 0 <= f / 1326 < 2048) by (split; [apply Z.div_pos|apply Z.div_lt_upper_bound]; lia).
  rewrite (add_modulo_small 4294967296), !(add_modulo_small 256), (add_modulo_small 65536) by lia.
  rewrite !Zplus_mod_idemp_l, (div_succ f 51), (div_succ f 1326), mod_1326 by lia.
  destruct (_ =? 0); destruct (_ =? 0); cbn [andb]; rewrite ?(Z.mod_small (f / 1326)) by lia; reflexivity.
Qed.

Lemma fn2gsmtime_mod a : fn2gsmtime (a mod H) = decomp (a mod H).
Proof. apply fn2gsmtime_decomp, Z.mod_pos_bound. reflexivity. Qed.

Lemma roundtrip f : 0 <= f < H -> gsmtime2fn (fn2gsmtime f) = f.
Proof.
  intros Hf. rewrite fn2gsmtime_decomp by exact Hf. unfold gsmtime2fn, decomp, u32, H in *. cbn [g_t1 g_t2 g_t3].
  (* (T3 - T2) mod 26 is the index of the 51-multiframe in the superframe because 51 = 2 * 26 - 1; gsmtime2fn_fields spells
     the witnesses out, here the solver finds them *)
  Z.to_euclidean_division_equations. lia.
Qed.

(* whichever branch l1s_time_inc takes, the frame number goes through ADD_MODULO *)
Lemma time_inc_fn g d : g_fn (time_inc g d) = add_modulo u32 (g_fn g) d c_GSM_MAX_FN.
Proof. unfold time_inc. destruct (d =? 1); [destruct (_ =? 0); [destruct (_ =? 0)|]|]; reflexivity. Qed.

(* an int32_t offset handed over as uint32_t: the conditional subtraction of ADD_MODULO undoes the 2^32 wrap of a
   negative offset exactly when the sum is in 0 .. 2 * GSM_MAX_FN - 1 *)
Lemma add_modulo_signed f d : 0 <= f < 2715648 -> -2147483648 <= d < 2147483648 ->
  add_modulo u32 f (u32 d) 2715648 = (f + d) mod 2715648 <-> 0 <= f + d < 2 * 2715648.
Proof.
  intros Hf Hd. unfold add_modulo, u32. destruct (_ >=? _) eqn:E.
  - Z.to_euclidean_division_equations. lia.
  - Z.to_euclidean_division_equations. lia.
Qed.

Lemma time_inc_signed f d : 0 <= f < 2715648 -> -2147483648 <= d < 2147483648 -> 0 <= f + d < 2 * 2715648 ->
  time_inc (decomp f) (u32 d) = decomp ((f + d) mod 2715648).
Proof.
  intros Hf Hd Hs. destruct (Z.eq_dec d 1) as [->|Hne].
  - apply inc1. exact Hf.
  - unfold time_inc. replace (u32 d =? 1) with false by (unfold u32; Z.to_euclidean_division_equations; lia).
    rewrite const_c. cbn [decomp g_fn]. rewrite (proj2 (add_modulo_signed f d Hf Hd) Hs). apply fn2gsmtime_mod.
Qed.

Lemma incd f d : 0 <= f < H -> 1 <= d <= H -> time_inc (decomp f) d = decomp ((f + d) mod H).
Proof.
  unfold H. intros Hf Hd. rewrite <- (Z.mod_small d 4294967296) at 1 by lia. apply time_inc_signed; lia.
Qed.

Lemma gsmtime2fn_fields fn0 t1 t2 t3 tc0 : 0 <= t1 < 2048 -> 0 <= t2 < 26 -> 0 <= t3 < 51 ->
  let f := gsmtime2fn {| g_fn := fn0; g_t1 := t1; g_t2 := t2; g_t3 := t3; g_tc := tc0 |} in
  0 <= f < H /\ f / 1326 = t1 /\ f mod 26 = t2 /\ f mod 51 = t3.
Proof.
  intros H1 H2 H3. unfold gsmtime2fn, u32, H. cbn [g_t1 g_t2 g_t3].
  rewrite Z.rem_mod_nonneg by lia.
  pose proof (Z.mod_pos_bound (t3 - t2 + 26) 26 eq_refl) as Hx.
  pose proof (Z.div_mod (t3 - t2 + 26) 26 ltac:(lia)) as Ex.
  set (x := (t3 - t2 + 26) mod 26) in *. set (q := (t3 - t2 + 26) / 26) in *.
  rewrite Z.mod_small by lia. cbv zeta.
  split; [lia|]. split; [|split].
  - symmetry. apply (Z.div_unique _ _ _ (51 * x + t3)); lia.
  - (* 51 x = 52 x - x, and x = t3 - t2 + 26 - 26 q *)
    symmetry. apply (Z.mod_unique _ _ (2 * t3 - 2 * t2 + 51 - 51 * q + 51 * t1)); lia.
  - symmetry. apply (Z.mod_unique _ _ (x + 26 * t1)); lia.
Qed.

(* non-vacuity: the wrap point *)
Example wrap_point : time_inc (decomp 2715647) 1 = decomp 0.
Proof. vm_compute. reflexivity. Qed.
