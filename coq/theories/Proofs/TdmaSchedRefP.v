(* C08: every operation preserves well-formedness, never crashes on a valid history, only ever appends to buckets
   (nothing is overwritten), and the ring refines the multiset specification of TdmaSchedSpec.v. *)
From Coq Require Import ZArith List Lia Permutation ZifyBool.
From OBB Require Import Model.TdmaSched Proofs.TdmaSchedSpec Proofs.TdmaSchedP.
Import ListNotations.
Open Scope Z_scope.

Definition due_in_range (m : list aitem) : Prop := forall e, In e m -> 0 <= fst e < 25.

Definition is_adv (o : op) : bool := match o with OAdvance => true | _ => false end.

Lemma advances_cons o r : advances (o :: r) = (if is_adv o then 1 else 0) + advances r.
Proof. destruct o; reflexivity. Qed.

Lemma advances_nonneg ops : 0 <= advances ops.
Proof. induction ops as [|o r IH]; [reflexivity|]. rewrite advances_cons. destruct (is_adv o); lia. Qed.

(* the frame [advances mid] ahead comes up after the last advance of mid and is left alone until then *)
Definition quiet (mid : list op) : Prop :=
  advances mid < 25 /\ no_reset mid /\ forall a b, mid = a ++ OExecute :: b -> advances a < advances mid.

Lemma quiet_cons o r : quiet (o :: r) -> o <> OReset /\ (o = OExecute -> advances r <> 0) /\ quiet r.
Proof.
  intros (Hn & Hnr & Hex). rewrite advances_cons in Hn. pose proof (advances_nonneg r) as Hr0. split; [|split; [|split; [|split]]].
  - intros ->. apply Hnr. left. reflexivity.
  - intros ->. specialize (Hex [] r eq_refl). cbn [advances] in Hex. lia.
  - destruct (is_adv o); lia.
  - intros Hin. apply Hnr. right. exact Hin.
  - intros a b ->. specialize (Hex (o :: a) b eq_refl). rewrite !advances_cons in Hex. lia.
Qed.

Definition ext (st st' : sched) : Prop :=
  s_cur st' = s_cur st /\ forall j, 0 <= j < 25 -> exists extra, bucket_abs st' j = bucket_abs st j ++ extra.

Lemma ext_refl st : ext st st.
Proof. split; [reflexivity|]. intros j _. exists []. rewrite app_nil_r. reflexivity. Qed.

Lemma ext_trans a b c : ext a b -> ext b c -> ext a c.
Proof.
  intros (C1 & E1) (C2 & E2). split; [congruence|]. intros j Hj.
  destruct (E1 j Hj) as (x1 & H1). destruct (E2 j Hj) as (x2 & H2). exists (x1 ++ x2). rewrite H2, H1, app_assoc. reflexivity.
Qed.

Lemma ext_due st st' d : ext st st' -> exists extra, bucket_due st' d = bucket_due st d ++ extra.
Proof. intros (Hc & E). unfold bucket_due. rewrite Hc. apply E, Z.mod_pos_bound. lia. Qed.

Lemma schedule_ext st off it : wf st ->
  exists st' rc, tdma_schedule st off it = Ok (st', rc) /\ wf st' /\ ext st st' /\ (cbs_ok st -> i_cb it <> 0 -> cbs_ok st').
Proof.
  intros Hwf. rewrite schedule_spec by exact Hwf. unfold bucket_due.
  set (B := (s_cur st + off) mod 25). assert (HB : 0 <= B < 25) by (apply Z.mod_pos_bound; lia).
  destruct (8 <=? Z.of_nat (length (bucket_abs st B))) eqn:E.
  - exists st, (-1). split; [reflexivity|]. split; [exact Hwf|]. split; [apply ext_refl|auto].
  - eexists _, _. split; [reflexivity|]. split; [|split; [split; [reflexivity|]|]].
    + apply wf_set_bucket; [exact Hwf|]. rewrite app_length. cbn [length]. lia.
    + intros j Hj. destruct (Z.eq_dec j B) as [->|Hne].
      * exists [it]. apply abs_set_bucket_eq; assumption.
      * exists []. rewrite app_nil_r. apply abs_set_bucket_neq; lia.
    + intros Hcb Hi. apply cbs_set_bucket; [exact Hcb|]. apply Forall_app. split; [apply abs_cbs; exact Hcb|constructor; [exact Hi|constructor]].
Qed.

Lemma place_ext off ret : forall plan st, wf st ->
  Forall (fun e => i_cb (snd e) <> 0) plan ->
  exists st' rc, place st off plan ret = Ok (st', rc) /\ wf st' /\ ext st st' /\ (cbs_ok st -> cbs_ok st') /\ (rc = -1 \/ rc = ret).
Proof.
  induction plan as [|[k it] r IH]; intros st Hwf HF; cbn [place].
  - exists st, ret. split; [reflexivity|]. split; [exact Hwf|]. split; [apply ext_refl|auto].
  - apply Forall_cons_iff in HF as (Hi & Hr). cbn [snd] in Hi.
    destruct (schedule_ext st (off + k) it Hwf) as (st1 & rc & Hs & Hwf1 & Hext1 & Hcb1). rewrite Hs.
    destruct (rc =? 0).
    + destruct (IH st1 Hwf1 Hr) as (st2 & rc2 & Hp & Hwf2 & Hext2 & Hcb2 & Hrc).
      exists st2, rc2. split; [exact Hp|]. split; [exact Hwf2|]. split; [eapply ext_trans; eassumption|auto].
    + exists st1, (-1). split; [reflexivity|]. split; [exact Hwf1|]. split; [exact Hext1|auto].
Qed.

Lemma plan_ok_of_set off set p3 plan : 0 <= off -> off + set_nframes set < 25 -> set_plan 0 set p3 = Some plan ->
  Forall (fun e => 0 <= off + fst e < 25 /\ i_cb (snd e) <> 0) plan.
Proof.
  intros H0 Hb Hp. destruct (set_plan_frames p3 set 0 plan Hp) as (HF & Hn).
  eapply Forall_impl; [|exact HF]. cbv beta. intros e He. lia.
Qed.

Lemma set_ext st off set p3 plan : wf st -> 0 <= off -> off + set_nframes set < 25 -> set_plan 0 set p3 = Some plan ->
  exists st' rc, tdma_schedule_set st off set p3 = Ok (st', rc) /\ wf st' /\ ext st st' /\ (cbs_ok st -> cbs_ok st') /\
    (rc = -1 \/ rc = set_nframes set).
Proof.
  intros Hwf H0 Hb Hp. rewrite (schedule_set_place st off set p3 plan) by (assumption || lia).
  apply place_ext; [exact Hwf|].
  eapply Forall_impl; [|exact (plan_ok_of_set off set p3 plan H0 Hb Hp)]. intros e He. apply He.
Qed.

Lemma schedule_fits st N it : wf st -> 0 <= N < 25 -> (length (bucket_due st N) < 8)%nat ->
  exists st', tdma_schedule st N it = Ok (st', 0) /\ wf st' /\ (cbs_ok st -> i_cb it <> 0 -> cbs_ok st') /\
    bucket_due st' N = bucket_due st N ++ [it] /\ forall d, 0 <= d < 25 -> d <> N -> bucket_due st' d = bucket_due st d.
Proof.
  intros Hwf HN Hroom. destruct (proj2 (overflow_reported st N it Hwf HN) Hroom) as (st' & E & _ & HdN & Hd).
  destruct (schedule_ext st N it Hwf) as (st1 & rc & E1 & Hwf1 & _ & Hcb1). rewrite E in E1. injection E1 as <- _.
  exists st'. auto.
Qed.

Lemma step_ok rcf st o : wf st -> cbs_ok st -> op_ok o ->
  exists st' b, step rcf st o = Ok (st', b) /\ wf st' /\ cbs_ok st'.
Proof.
  intros Hwf Hcb Hok. destruct o as [off it|off set p3| | |]; cbn [step op_ok] in *.
  - destruct (schedule_ext st off it Hwf) as (st' & rc & -> & Hwf' & _ & Hcb'). destruct Hok as (_ & Hi). eauto 6.
  - destruct Hok as (H0 & Hb & plan & Hp).
    destruct (set_ext st off set p3 plan Hwf H0 Hb Hp) as (st' & rc & -> & Hwf' & _ & Hcb' & _). eauto 6.
  - eexists _, _. split; [reflexivity|]. split; [apply wf_advance; exact Hwf|exact Hcb].
  - destruct (execute_total rcf st Hwf Hcb) as (st' & lg & r & -> & Hst).
    eexists _, _. split; [reflexivity|]. destruct Hst as [->| ->]; [split; assumption|].
    split; [apply wf_set_bucket; [exact Hwf|cbn; lia]|apply cbs_set_bucket; [exact Hcb|constructor]].
  - eexists _, _. split; [reflexivity|]. split; [apply wf_reset; exact Hwf|apply cbs_reset; exact Hcb].
Qed.

Lemma run_ok rcf : forall ops st, wf st -> cbs_ok st -> Forall op_ok ops ->
  exists os st', run rcf st ops = (os, FOk st') /\ wf st' /\ cbs_ok st' /\ length os = length ops.
Proof.
  induction ops as [|o r IH]; intros st Hwf Hcb HF; cbn [run].
  - exists [], st. split; [reflexivity|]. split; [exact Hwf|]. split; [exact Hcb|reflexivity].
  - inversion HF as [|? ? Ho Hr]; subst.
    destruct (step_ok rcf st o Hwf Hcb Ho) as (st1 & b & Hs & Hwf1 & Hcb1). rewrite Hs.
    destruct (IH st1 Hwf1 Hcb1 Hr) as (os & st2 & Hrun & Hwf2 & Hcb2 & Hlen). rewrite Hrun.
    exists (b :: os), st2. split; [reflexivity|]. split; [exact Hwf2|]. split; [exact Hcb2|cbn [length]; lia].
Qed.

Lemma due_cons d N it m : due d ((N, it) :: m) = if N =? d then it :: due d m else due d m.
Proof. unfold due. cbn [filter fst]. destruct (N =? d); reflexivity. Qed.

Lemma due_advance m : due_in_range m -> forall d, 0 <= d < 25 -> due d (a_advance m) = due ((d + 1) mod 25) m.
Proof.
  induction m as [|[x it] r IH]; intros Hr d Hd; [reflexivity|].
  unfold a_advance. cbn [map fst snd]. fold (a_advance r). rewrite !due_cons.
  rewrite IH by (try assumption; intros e He; apply Hr; right; exact He).
  pose proof (Hr (x, it) (or_introl eq_refl)) as Hx. cbn [fst] in Hx.
  rewrite (ring_pred x d Hx Hd). reflexivity.
Qed.

(* execute and reset both select by the due-in value *)
Lemma due_filter (g : Z -> bool) m d : due d (filter (fun e => g (fst e)) m) = if g d then due d m else [].
Proof.
  induction m as [|[x it] r IH]; cbn [filter fst]; [destruct (g d); reflexivity|].
  destruct (g x) eqn:Ex; rewrite ?due_cons, IH; destruct (x =? d) eqn:Exd; try reflexivity;
    replace d with x by lia; rewrite Ex; reflexivity.
Qed.

Lemma in_filter_range (f : aitem -> bool) m : due_in_range m -> due_in_range (filter f m).
Proof. intros H e He. apply filter_In in He. apply H, He. Qed.

Lemma sched_sim st m N it : wf st -> refines st m -> 0 <= N < 25 ->
  exists st', tdma_schedule st N it = Ok (st', snd (a_schedule m N it)) /\ wf st' /\ refines st' (fst (a_schedule m N it)).
Proof.
  intros Hwf (Hrange & HR) HN. rewrite schedule_spec by exact Hwf. unfold a_schedule.
  rewrite <- (Permutation_length (HR N HN)).
  destruct (8 <=? Z.of_nat (length (bucket_due st N))) eqn:E; eexists; (split; [reflexivity|]); cbn [fst].
  - split; [exact Hwf|split; assumption].
  - split; [apply wf_set_bucket; [exact Hwf|rewrite app_length; cbn [length]; lia]|]. split.
    + intros e [<-|He]; [exact HN|apply Hrange, He].
    + intros d Hd. rewrite due_cons, bucket_due_set_bucket by assumption.
      destruct (N =? d) eqn:End; [|apply HR, Hd]. replace d with N by lia.
      rewrite <- Permutation_cons_append. constructor. apply HR, HN.
Qed.

Lemma place_sim N ret : forall plan st m, wf st -> refines st m ->
  Forall (fun e => 0 <= N + fst e < 25 /\ i_cb (snd e) <> 0) plan ->
  exists st', place st N plan ret = Ok (st', snd (a_place m N plan ret)) /\ refines st' (fst (a_place m N plan ret)).
Proof.
  induction plan as [|[k it] r IH]; intros st m Hwf HR HF; cbn [place a_place].
  - exists st. split; [reflexivity|exact HR].
  - apply Forall_cons_iff in HF as ((Hk & _) & Hr). cbn [fst] in Hk.
    destruct (sched_sim st m (N + k) it Hwf HR Hk) as (st1 & -> & Hwf1 & HR1).
    destruct (a_schedule m (N + k) it) as [m1 rc1]. cbn [fst snd] in *.
    destruct (rc1 =? 0); [exact (IH st1 m1 Hwf1 HR1 Hr)|]. exists st1. split; [reflexivity|exact HR1].
Qed.

Lemma advance_sim st m : refines st m -> refines (tdma_sched_advance st) (a_advance m).
Proof.
  intros (Hrange & HR). split.
  - intros e He. apply in_map_iff in He as (x & <- & Hx). apply Z.mod_pos_bound. lia.
  - intros d Hd. rewrite bucket_due_advance, due_advance by assumption. apply HR, Z.mod_pos_bound. lia.
Qed.

(* stated on what execute leaves, as execute_sorted_perm gives it *)
Lemma execute_sim st st' m : refines st m -> bucket_due st' 0 = [] ->
  (forall d, 0 < d < 25 -> bucket_due st' d = bucket_due st d) -> refines st' (snd (a_execute m)).
Proof.
  intros (Hrange & HR) H0 Hd. split; [exact (in_filter_range _ m Hrange)|].
  intros d Hdr. cbn [a_execute snd]. rewrite (due_filter (fun x => negb (x =? 0))).
  destruct (d =? 0) eqn:E; cbn [negb].
  - replace d with 0 by lia. rewrite H0. constructor.
  - rewrite Hd by lia. apply HR, Hdr.
Qed.

Lemma reset_sim st m : wf st -> refines st m -> refines (tdma_sched_reset st) (a_reset m).
Proof.
  intros Hwf (Hrange & HR). split; [exact (in_filter_range _ m Hrange)|].
  intros d Hd. unfold a_reset. rewrite (due_filter (fun x => x =? 0)), bucket_due_reset by assumption.
  destruct (d =? 0) eqn:E; [|constructor]. replace d with 0 by lia. apply HR. lia.
Qed.

Lemma step_refines rcf st m o st' b : wf st -> cbs_ok st -> (forall x, 0 <= rcf x) -> refines st m -> op_ok o ->
  step rcf st o = Ok (st', b) ->
  refines st' (fst (a_step m o)) /\ obs_matches b (snd (a_step m o)).
Proof.
  intros Hwf Hcb Hr HR Hok Hs. destruct o as [off it|off set p3| | |]; cbn [step op_ok a_step] in *.
  - destruct (sched_sim st m off it Hwf HR (proj1 Hok)) as (st1 & E & _ & HR1). rewrite E in Hs. injection Hs as <- <-.
    destruct (a_schedule m off it) as [m1 rc]. exact (conj HR1 eq_refl).
  - destruct Hok as (H0 & Hb & plan & Hp).
    rewrite (schedule_set_place st off set p3 plan) in Hs by (assumption || lia).
    destruct (place_sim off (set_nframes set) plan st m Hwf HR (plan_ok_of_set off set p3 plan H0 Hb Hp)) as (st1 & Ep & HR1).
    rewrite Ep in Hs. injection Hs as <- <-. unfold a_set. rewrite Hp.
    destruct (a_place m off plan (set_nframes set)) as [m1 rc]. exact (conj HR1 eq_refl).
  - injection Hs as <- <-. split; [apply advance_sim, HR|exact I].
  - destruct (execute_sorted_perm rcf st Hwf Hcb Hr) as (st1 & lg & E & HP & Hasc & H0 & _ & Hd).
    rewrite E in Hs. injection Hs as <- <-.
    pose proof (perm_trans HP (proj2 HR 0 ltac:(lia))) as HP'.
    split; [exact (execute_sim st st1 m HR H0 Hd)|]. cbn [a_execute snd obs_matches].
    split; [exact HP'|]. split; [exact Hasc|]. rewrite (Permutation_length HP'). reflexivity.
  - injection Hs as <- <-. split; [apply reset_sim; assumption|]. cbn [snd obs_matches].
    rewrite reset_stored, <- bucket_due_0, (Permutation_length (proj2 HR 0 ltac:(lia))) by exact Hwf.
    unfold due, a_reset. rewrite map_length. reflexivity.
Qed.

Lemma run_refines rcf : (forall x, 0 <= rcf x) -> forall ops st m, wf st -> cbs_ok st -> refines st m -> Forall op_ok ops ->
  exists os st', run rcf st ops = (os, FOk st') /\ wf st' /\ cbs_ok st' /\
                 refines st' (snd (a_run m ops)) /\ Forall2 obs_matches os (fst (a_run m ops)).
Proof.
  intros Hr. induction ops as [|o r IH]; intros st m Hwf Hcb HR HF; cbn [run a_run].
  - exists [], st. split; [reflexivity|]. split; [exact Hwf|]. split; [exact Hcb|]. split; [exact HR|constructor].
  - inversion HF as [|? ? Ho Hrest]; subst.
    destruct (step_ok rcf st o Hwf Hcb Ho) as (st1 & b & Hs & Hwf1 & Hcb1). rewrite Hs.
    destruct (step_refines rcf st m o st1 b Hwf Hcb Hr HR Ho Hs) as (HR1 & Hobs).
    destruct (a_step m o) as [m1 a]. cbn [fst snd] in *.
    destruct (IH st1 m1 Hwf1 Hcb1 HR1 Hrest) as (os & st2 & Hrun & Hwf2 & Hcb2 & HR2 & Hall). rewrite Hrun.
    destruct (a_run m1 r) as [as' m2]. cbn [fst snd] in *.
    exists (b :: os), st2. split; [reflexivity|]. split; [exact Hwf2|]. split; [exact Hcb2|]. split; [exact HR2|constructor; assumption].
Qed.

Lemma init_wf c : 0 <= c < 25 -> wf (init c) /\ cbs_ok (init c).
Proof.
  intros Hc. unfold init, wf, cbs_ok. cbn [s_bk s_cur]. rewrite repeat_length.
  repeat split; try lia; try reflexivity; apply Forall_forall; intros b Hb; apply repeat_spec in Hb; subst; [cbn; lia|constructor].
Qed.

Lemma init_refines c : refines (init c) [].
Proof.
  split; [intros e []|]. intros d Hd. unfold bucket_due, bucket_abs, init. cbn [s_bk].
  rewrite nth_repeat. constructor.
Qed.
