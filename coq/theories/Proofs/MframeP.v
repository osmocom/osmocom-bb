(* Lemmas for C11. The regenerated tables are compared by evaluation; what is evaluated runs over one cycle (102 or 104 frames)
   per table row and is extended to every frame number by the periodicity lemmas below (every modulo and every layout
   period divides the cycle, the cycle divides the hyperframe 2715648). *)
From Coq Require Import ZArith List Bool Lia ZifyBool Znumtheory.
From OBB Require Import Base.Lists Base.Range Gen.MframeFw Gen.MframeTrxcon Model.Mframe.
Import ListNotations.
Open Scope Z_scope.

Lemma rows_count : length c11_rows = 35%nat.
Proof. reflexivity. Qed.

(* the big literal tables stay folded from here on (kernel conversion would otherwise walk through them at Qed) *)
Opaque tx_layouts fw_sched tx_lookup tx_desc fw_chan_nr c11_rows.

Lemma mod_mod_divide x C m : 0 < m -> 0 < C -> C mod m = 0 -> (x mod C) mod m = x mod m.
Proof. intros Hm HC Hd. symmetry. apply (Zmod_div_mod m C x Hm HC). apply Z.mod_divide; [lia | exact Hd]. Qed.

Lemma mod_cycle x y C m : 0 < m -> 0 < C -> C mod m = 0 -> x mod C = y mod C -> x mod m = y mod m.
Proof. intros Hm HC Hd Hxy. rewrite <- (mod_mod_divide x C m Hm HC Hd), Hxy. apply mod_mod_divide; assumption. Qed.

Lemma s32_small x : -2147483648 <= x < 2147483648 -> s32 x = x.
Proof. intros H. unfold s32, u32. cbv zeta. destruct (x mod 4294967296 <? 2147483648) eqn:E; Z.div_mod_to_equations; lia. Qed.

Lemma fw_set_items_cycle task C items : 0 < C -> mods_divide C items = true ->
  forall x y, 0 <= x + fw_SCHEDULE_AHEAD < 4294967296 -> 0 <= y + fw_SCHEDULE_AHEAD < 4294967296 ->
  (x + fw_SCHEDULE_AHEAD) mod C = (y + fw_SCHEDULE_AHEAD) mod C ->
  fw_set_items task x items = fw_set_items task y items.
Proof.
  intros HC Hd x y Hx Hy Hxy. unfold mods_divide in Hd.
  induction items as [|it tl IH]; [reflexivity|].
  destruct it as [[[k m] f] fl]. cbn [forallb] in Hd.
  apply andb_prop in Hd as [Hit Htl]. apply andb_prop in Hit as [Hm Hdiv].
  apply Z.ltb_lt in Hm. apply Z.eqb_eq in Hdiv.
  cbn [fw_set_items]. rewrite (IH Htl).
  unfold u32. rewrite (Z.mod_small _ _ Hx), (Z.mod_small _ _ Hy).
  rewrite (mod_cycle _ _ C m Hm HC Hdiv Hxy). reflexivity.
Qed.

Definition task_items (task : Z) : option (list (Z*Z*Z*Z)) :=
  match nth_error fw_sched (Z.to_nat task) with Some (Some items) => Some items | _ => None end.

Lemma fw_schedule_set_residue task C items cur : 0 < C < 2715648 -> task_items task = Some items -> mods_divide C items = true ->
  0 <= cur < 2715648 -> fw_schedule_set task cur = fw_schedule_set task ((cur + 2) mod C - 2).
Proof.
  intros HC Hn Hd Hcur. unfold task_items in Hn. unfold fw_schedule_set.
  destruct (nth_error fw_sched (Z.to_nat task)) as [[its|]|]; try discriminate. injection Hn as ->.
  pose proof (Z.mod_pos_bound (cur + 2) C ltac:(lia)) as Hx.
  rewrite (fw_set_items_cycle task C items (proj1 HC) Hd cur ((cur + 2) mod C - 2)); unfold fw_SCHEDULE_AHEAD;
    [reflexivity | lia | lia | rewrite Z.sub_add, Z.mod_mod by lia; reflexivity].
Qed.

Lemma trx_frame_cycle L C : 0 < C -> 0 < ly_period L -> C mod ly_period L = 0 ->
  forall x y, 0 <= x < 4294967296 -> 0 <= y < 4294967296 -> x mod C = y mod C -> trx_frame L x = trx_frame L y.
Proof.
  intros HC Hp Hd x y Hx Hy Hxy. unfold trx_frame, u32.
  rewrite (Z.mod_small _ _ Hx), (Z.mod_small _ _ Hy), (mod_cycle x y C (ly_period L) Hp HC Hd Hxy). reflexivity.
Qed.

Lemma trx_frame_residue L C cur : 0 < C < 2715648 -> 2715648 mod C = 0 -> 0 < ly_period L -> C mod ly_period L = 0 ->
  trx_frame L ((cur + 2) mod 2715648) = trx_frame L ((cur + 2) mod C).
Proof.
  intros HC HH Hp Hd.
  pose proof (Z.mod_pos_bound (cur + 2) C ltac:(lia)). pose proof (Z.mod_pos_bound (cur + 2) 2715648 ltac:(lia)).
  apply (trx_frame_cycle L C); try lia.
  rewrite (mod_mod_divide _ 2715648 C), Z.mod_mod by lia. reflexivity.
Qed.

Lemma sweep_table : forallb chk_table tx_layouts = true.
Proof. vm_compute. reflexivity. Qed.

Lemma has_frames_true L : ly_cfg L <> tx_GSM_PCHAN_NONE -> has_frames L = true.
Proof. intros H. apply negb_true_iff, Z.eqb_neq, H. Qed.

Lemma layout_table : forall L, In L tx_layouts -> ly_cfg L <> tx_GSM_PCHAN_NONE ->
  0 < ly_period L /\ ly_period L <= ly_nframes L /\ ly_period L < 256 /\ Z.of_nat (length (ly_frames L)) = ly_nframes L.
Proof.
  intros L HL Hc. pose proof (forallb_In _ _ sweep_table L HL) as H.
  unfold chk_table in H. rewrite (has_frames_true L Hc) in H. cbn [negb orb] in H. lia.
Qed.

Lemma lookup_in_table : forall L fn, In L tx_layouts -> ly_cfg L <> tx_GSM_PCHAN_NONE -> 0 <= fn < 4294967296 ->
  0 < ly_period L /\ 0 <= fn mod ly_period L < ly_nframes L /\
  exists fr, nth_error (ly_frames L) (Z.to_nat (fn mod ly_period L)) = Some fr /\ trx_frame L fn = FrOk fr /\ trx_frame_rx L fn = FrOk fr.
Proof.
  intros L fn HL Hc Hfn. destruct (layout_table L HL Hc) as [Hp [Hn [H8 Hlen]]].
  pose proof (Z.mod_pos_bound fn (ly_period L) Hp) as Hb.
  split; [exact Hp|]. split; [lia|].
  destruct (nth_error (ly_frames L) (Z.to_nat (fn mod ly_period L))) as [fr|] eqn:E.
  - exists fr. split; [reflexivity|].
    unfold trx_frame, trx_frame_rx, u32, u8. rewrite (Z.mod_small fn _ Hfn).
    rewrite (Z.mod_small (fn mod ly_period L) 256) by lia.
    replace (ly_period L =? 0) with false by lia.
    replace ((0 <=? fn mod ly_period L) && (fn mod ly_period L <? ly_nframes L)) with true by lia.
    rewrite E. split; reflexivity.
  - exfalso. apply nth_error_None in E. lia.
Qed.

(* the rows the lookup reads over two periods - two, so that a walk that starts in the first period can run through its end; the
   evaluations below walk these rows instead of looking each frame up *)
Definition two_periods (L : layout) : list (Z*Z*Z*Z) :=
  let F := firstn (Z.to_nat (ly_period L)) (ly_frames L) in F ++ F.

Lemma frames_twice L x fr : In L tx_layouts -> ly_cfg L <> tx_GSM_PCHAN_NONE -> 0 <= x < 2 * ly_period L ->
  (trx_frame L x = FrOk fr <-> nth_error (two_periods L) (Z.to_nat x) = Some fr).
Proof.
  intros HL Hc Hx. destruct (layout_table L HL Hc) as [Hp [Hn [H8 Hlen]]].
  destruct (lookup_in_table L x HL Hc ltac:(lia)) as [_ [_ [fr0 [N [T _]]]]]. rewrite T.
  assert (E : nth_error (two_periods L) (Z.to_nat x) = Some fr0).
  { unfold two_periods. cbv zeta. rewrite <- N.
    assert (Hf : length (firstn (Z.to_nat (ly_period L)) (ly_frames L)) = Z.to_nat (ly_period L)) by (apply firstn_length_le; lia).
    destruct (Z_lt_le_dec x (ly_period L)) as [Lt|Ge].
    - rewrite Z.mod_small, nth_error_app1, nth_error_firstn by lia. reflexivity.
    - rewrite nth_error_app2, nth_error_firstn, <- (Z.mod_unique_pos x (ly_period L) 1 (x - ly_period L)) by lia. f_equal. lia. }
  rewrite E. split; intros Q; injection Q as <-; reflexivity.
Qed.

Lemma two_periods_length L : In L tx_layouts -> ly_cfg L <> tx_GSM_PCHAN_NONE ->
  length (two_periods L) = (2 * Z.to_nat (ly_period L))%nat.
Proof.
  intros HL Hc. destruct (layout_table L HL Hc) as [Hp [Hn [_ Hlen]]].
  unfold two_periods. cbv zeta. rewrite app_length, firstn_length_le; lia.
Qed.

Lemma sweep_none : forallb (fun L => negb (ly_cfg L =? tx_GSM_PCHAN_NONE) || (ly_period L =? 0)) tx_layouts = true.
Proof. vm_compute. reflexivity. Qed.

Lemma none_layout_divzero : forall L fn, In L tx_layouts -> ly_cfg L = tx_GSM_PCHAN_NONE -> trx_frame L fn = FrDivZero.
Proof.
  intros L fn HL Hc. pose proof (forallb_In _ _ sweep_none L HL) as H. cbv beta in H.
  apply Z.eqb_eq in Hc. rewrite Hc in H. rewrite orb_false_l in H. unfold trx_frame. rewrite H. reflexivity.
Qed.

Lemma sweep_mask : forallb chk_mask tx_layouts = true.
Proof. vm_compute. reflexivity. Qed.

Lemma mask_covers : forall L fr d, In L tx_layouts -> In fr (ly_frames L) -> fr_chan d fr <> tx_L1SCHED_IDLE ->
  0 <= fr_chan d fr < tx_CHAN_MAX /\ fr_chan d fr < 64 /\ Z.testbit (ly_mask L) (fr_chan d fr) = true.
Proof.
  intros L fr d HL Hfr Hc. pose proof (forallb_In _ _ (forallb_In _ _ sweep_mask L HL) fr Hfr) as H. cbv beta in H.
  assert (G : chan_in_mask L (fr_chan d fr) = true) by (destruct d; lia).
  unfold chan_in_mask in G. destruct (Z.testbit (ly_mask L) (fr_chan d fr)); lia.
Qed.

Lemma configured_has_state : forall L fr d, In L tx_layouts -> In fr (ly_frames L) -> fr_chan d fr <> tx_L1SCHED_IDLE ->
  In (fr_chan d fr) (trx_configured L).
Proof.
  intros L fr d HL Hfr Hn.
  destruct (mask_covers L fr d HL Hfr Hn) as [Hr [H64 Hb]].
  apply filter_In. split; [apply in_range; lia | rewrite Hb; lia].
Qed.

Lemma configured_only_mask : forall L c, In c (trx_configured L) -> 0 <= c < tx_CHAN_MAX /\ Z.testbit (ly_mask L) c = true.
Proof.
  intros L c H. apply filter_In in H as [Hr Hb].
  apply range_in in Hr. apply andb_prop in Hb as [_ Hb]. split; [lia | exact Hb].
Qed.

Lemma sweep_lookup : forallb (fun cfg => forallb (chk_lookup cfg) (range 0 8)) (range 0 128) = true.
Proof. vm_compute. reflexivity. Qed.

Lemma existsb_eqb_In x l : existsb (Z.eqb x) l = true <-> In x l.
Proof.
  rewrite existsb_exists. split.
  - intros [y [Hy E]]. apply Z.eqb_eq in E. subst. exact Hy.
  - intros H. exists x. split; [exact H | apply Z.eqb_refl].
Qed.

Lemma layout_valid_for_tn : forall cfg tn, 0 <= cfg < 128 -> 0 <= tn < 8 ->
  (In cfg c11_configs ->
     exists li L, trx_layout cfg tn = Some li /\ trx_layout_real cfg tn = li /\ nth_error tx_layouts (Z.to_nat li) = Some L /\
                  ly_cfg L = cfg /\ Z.testbit (ly_slotmask L) tn = true) /\
  (~ In cfg c11_configs -> trx_layout cfg tn = None /\ trx_layout_real cfg tn = -1).
Proof.
  intros cfg tn Hcfg Htn.
  pose proof (forallb_range _ _ _ (forallb_range _ _ _ sweep_lookup cfg Hcfg) tn Htn) as H.
  unfold chk_lookup in H. rewrite <- existsb_eqb_In. destruct (existsb (Z.eqb cfg) c11_configs).
  - split; [intros _ | intros N; contradiction N; reflexivity].
    destruct (trx_layout cfg tn) as [li|]; [|lia].
    destruct (nth_error tx_layouts (Z.to_nat li)) as [L|] eqn:EL; [|lia].
    exists li, L. repeat split; try lia. exact EL.
  - split; [discriminate | intros _].
    destruct (trx_layout cfg tn) as [li|]; [lia | split; [reflexivity | lia]].
Qed.

(* the calls cs the firmware makes for the row's task at one current frame against the row fr of the layout for the frame on
   air: block channels start a block exactly on burst 0 of the channel, per direction, plain and SACCH (the firmware is
   receive-only where the mode says so); TCH rows are compared frame by frame, TCH_D standing for the other TCH/H sub-channel.
   Both lookups are arguments, so that one evaluation of each serves every clause. *)
Definition agree (r : row) (cs : list call) (fr : Z*Z*Z*Z) : bool :=
  let fires k s := existsb (call_is k s) cs in
  let owns d o := match o with Some c => fr_chan d fr =? c | None => false end in
  let first d o := match o with Some c => (fr_chan d fr =? c) && (fr_bid d fr =? 0) | None => false end in
  match r_mode r with
  | Block =>
      Bool.eqb (fires K_NB_DL false) (first DL (Some (r_lchan r))) && Bool.eqb (fires K_NB_DL true) (first DL (r_sacch r)) &&
      Bool.eqb (fires K_NB_UL false) (first UL (Some (r_lchan r))) && Bool.eqb (fires K_NB_UL true) (first UL (r_sacch r))
  | BlockDL =>
      Bool.eqb (fires K_NB_DL false) (first DL (Some (r_lchan r))) && Bool.eqb (fires K_NB_DL true) (first DL (r_sacch r)) &&
      negb (fires K_NB_UL false) && negb (fires K_NB_UL true)
  | Tch =>
      Bool.eqb (fires K_TCH false) (owns DL (Some (r_lchan r))) && Bool.eqb (fires K_TCH false) (owns UL (Some (r_lchan r))) &&
      Bool.eqb (fires K_TCH_A true) (owns DL (r_sacch r)) && Bool.eqb (fires K_TCH_A true) (owns UL (r_sacch r)) &&
      Bool.eqb (fires K_TCH_D false) (owns DL (other_subchan (r_lchan r))) &&
      Bool.eqb (fires K_TCH_D false) (owns UL (other_subchan (r_lchan r)))
  end.

(* the layouts a row can meet: those of its combination whose slotmask has a timeslot the row is for (one for the block
   channels, one per timeslot or pair of timeslots for TCH/F and TCH/H) *)
Definition row_layouts (r : row) : list layout :=
  filter (fun L => (ly_cfg L =? r_cfg r) && existsb (fun tn => tn_ok (r_tn r) tn && Z.testbit (ly_slotmask L) tn) (range 0 8))
         tx_layouts.

Fixpoint agree_rows (r : row) (fws : list fwres) (frs : list (Z*Z*Z*Z)) : bool :=
  match fws, frs with
  | [], _ => true
  | FwOk cs :: fws', fr :: frs' => agree r cs fr && agree_rows r fws' frs'
  | _, _ => false
  end.

(* one cycle of the row, as the frames on air 0 .. cycle-1 (current frames -2 .. cycle-3) whose firmware side is fws, against the rows of
   each of these layouts. The other clauses are what periodicity and the (combination, timeslot) lookup need *)
Definition row_agrees (r : row) (fws : list fwres) : bool :=
  (0 <=? r_cfg r) && (r_cfg r <? 128) && existsb (Z.eqb (r_cfg r)) c11_configs && negb (r_cfg r =? tx_GSM_PCHAN_NONE) &&
  match task_items (r_task r) with Some items => mods_divide (row_cycle r) items | None => false end &&
  forallb (fun L => (0 <? ly_period L) && (row_cycle r mod ly_period L =? 0) &&
                    agree_rows r (firstn (Z.to_nat (row_cycle r)) fws) (two_periods L)) (row_layouts r).

(* the firmware side is computed once per task, for the longer of the two cycles, and serves every row of the task *)
Definition task_agrees (t : Z) : bool :=
  let fws := map (fun fn => fw_schedule_set t (fn - 2)) (upfrom 0 104) in
  forallb (fun r => row_agrees r fws) (filter (fun r => r_task r =? t) c11_rows).

Lemma sweep_rows : forallb task_agrees (nodup Z.eq_dec (map r_task c11_rows)) = true.
Proof. vm_compute. reflexivity. Qed.

Lemma row_cycle_hyper r : 0 < row_cycle r < 2715648 /\ row_cycle r <= 104 /\ 2715648 mod row_cycle r = 0.
Proof. unfold row_cycle. destruct (r_mode r); repeat split; reflexivity || lia. Qed.

Lemma fws_nth (f : Z -> fwres) n C fn : 0 <= fn < C -> C <= Z.of_nat n ->
  nth_error (firstn (Z.to_nat C) (map f (upfrom 0 n))) (Z.to_nat fn) = Some (f fn).
Proof.
  intros Hfn HC. rewrite nth_error_firstn by lia.
  rewrite (map_nth_error f _ _ (nth_error_upfrom n 0 (Z.to_nat fn) ltac:(lia))). do 2 f_equal. lia.
Qed.

Lemma agree_rows_nth r : forall fws frs i R, agree_rows r fws frs = true -> nth_error fws i = Some R ->
  exists cs fr, R = FwOk cs /\ nth_error frs i = Some fr /\ agree r cs fr = true.
Proof.
  induction fws as [|R0 fws IH]; intros frs i R H Hn; [destruct i; discriminate|].
  cbn [agree_rows] in H. destruct R0 as [| |cs]; try discriminate. destruct frs as [|fr frs]; [discriminate|].
  apply andb_prop in H as [H1 H2]. destruct i as [|i]; cbn [nth_error] in Hn |- *.
  - injection Hn as <-. exists cs, fr. auto.
  - exact (IH frs i R H2 Hn).
Qed.

Lemma row_at r tn cur : In r c11_rows -> 0 <= tn < 8 -> tn_ok (r_tn r) tn = true -> 0 <= cur < 2715648 ->
  exists L cs fr, row_layout r tn = Some L /\ fw_schedule_set (r_task r) cur = FwOk cs /\
    trx_frame L ((cur + 2) mod 2715648) = FrOk fr /\ agree r cs fr = true.
Proof.
  intros Hr Htn Hok Hcur.
  pose proof (forallb_In _ _ sweep_rows _ (proj2 (nodup_In Z.eq_dec _ _) (in_map r_task _ r Hr))) as St.
  pose proof (forallb_In _ _ St r (proj2 (filter_In _ _ _) (conj Hr (Z.eqb_refl _)))) as S. cbv beta in S. unfold row_agrees in S.
  rewrite !andb_true_iff in S. destruct S as [[[[[S0 S1] Sc] Sn] Sm] Sp].
  destruct (layout_valid_for_tn (r_cfg r) tn (conj (proj1 (Z.leb_le _ _) S0) (proj1 (Z.ltb_lt _ _) S1)) Htn) as [V _].
  destruct (V (proj1 (existsb_eqb_In _ _) Sc)) as [li [L [E1 [_ [E2 [Ecfg Ebit]]]]]].
  assert (HL : In L (row_layouts r)).
  { apply filter_In. split; [exact (nth_error_In _ _ E2)|]. rewrite Ecfg, Z.eqb_refl.
    apply existsb_exists. exists tn. split; [apply in_range; exact Htn | rewrite Hok, Ebit; reflexivity]. }
  destruct (task_items (r_task r)) as [items|] eqn:EI; [|discriminate].
  pose proof (forallb_In _ _ Sp L HL) as P. cbv beta in P.
  rewrite !andb_true_iff, Z.ltb_lt, Z.eqb_eq in P. destruct P as [[Pp Pd] Pa].
  (* cur sees the rows of both tables that the frame on air (cur + 2) mod cycle of the evaluated cycle sees *)
  destruct (row_cycle_hyper r) as [HC [H104 HH]].
  pose proof (Z.mod_pos_bound (cur + 2) _ (proj1 HC)) as Hfn.
  pose proof (fw_schedule_set_residue _ _ items cur HC EI Sm Hcur) as Ef.
  pose proof (trx_frame_residue L _ cur HC HH Pp Pd) as Et.
  set (fn := (cur + 2) mod row_cycle r) in *.
  destruct (agree_rows_nth r _ _ (Z.to_nat fn) (fw_schedule_set (r_task r) (fn - 2)) Pa) as [cs [fr [Ec [En A]]]].
  { exact (fws_nth (fun fn => fw_schedule_set (r_task r) (fn - 2)) 104 _ fn Hfn H104). }
  exists L, cs, fr. unfold row_layout. rewrite E1, Ef, Et, Ec. repeat split; [exact E2 | | exact A].
  assert (Hne : ly_cfg L <> tx_GSM_PCHAN_NONE) by (rewrite Ecfg; apply Z.eqb_neq, negb_true_iff, Sn).
  apply (frames_twice L fn fr (nth_error_In _ _ E2) Hne); [|exact En].
  assert (B : (Z.to_nat fn < length (two_periods L))%nat) by (apply nth_error_Some; congruence).
  rewrite (two_periods_length L (nth_error_In _ _ E2) Hne) in B. clear - B Hfn. lia.
Qed.

Lemma block_starts_agree : forall r tn cur,
  In r c11_rows -> r_mode r <> Tch -> 0 <= tn < 8 -> tn_ok (r_tn r) tn = true -> 0 <= cur < 2715648 ->
  exists L, row_layout r tn = Some L /\
    let fn := (cur + 2) mod 2715648 in
    fw_fires (r_task r) K_NB_DL false cur = trx_first L DL (r_lchan r) fn /\
    fw_fires (r_task r) K_NB_DL true cur = trx_first_opt L DL (r_sacch r) fn /\
    (r_mode r = Block ->
       fw_fires (r_task r) K_NB_UL false cur = trx_first L UL (r_lchan r) fn /\
       fw_fires (r_task r) K_NB_UL true cur = trx_first_opt L UL (r_sacch r) fn) /\
    (r_mode r = BlockDL ->
       fw_fires (r_task r) K_NB_UL false cur = false /\ fw_fires (r_task r) K_NB_UL true cur = false).
Proof.
  intros r tn cur Hr Hm Htn Hok Hcur.
  destruct (row_at r tn cur Hr Htn Hok Hcur) as [L [cs [fr [HL [Ef [Et A]]]]]].
  exists L. split; [exact HL|]. cbv zeta. unfold fw_fires, trx_first_opt, trx_first. rewrite Ef, Et.
  unfold agree in A. destruct (r_mode r); [| |congruence]; cbv beta iota zeta in A |- *.
  - rewrite !andb_true_iff, !Bool.eqb_true_iff in A. destruct A as [[[A1 A2] A3] A4].
    split; [exact A1|]. split; [exact A2|]. split; [intros _; split; assumption | discriminate].
  - rewrite !andb_true_iff, !Bool.eqb_true_iff, !negb_true_iff in A. destruct A as [[[A1 A2] A3] A4].
    split; [exact A1|]. split; [exact A2|]. split; [discriminate | intros _; split; assumption].
Qed.

Lemma tch_frames_agree : forall r tn cur,
  In r c11_rows -> r_mode r = Tch -> 0 <= tn < 8 -> tn_ok (r_tn r) tn = true -> 0 <= cur < 2715648 ->
  exists L, row_layout r tn = Some L /\
    let fn := (cur + 2) mod 2715648 in
    fw_fires (r_task r) K_TCH false cur = trx_owns L DL (r_lchan r) fn /\
    fw_fires (r_task r) K_TCH false cur = trx_owns L UL (r_lchan r) fn /\
    fw_fires (r_task r) K_TCH_A true cur = trx_owns_opt L DL (r_sacch r) fn /\
    fw_fires (r_task r) K_TCH_A true cur = trx_owns_opt L UL (r_sacch r) fn /\
    fw_fires (r_task r) K_TCH_D false cur = trx_owns_opt L DL (other_subchan (r_lchan r)) fn /\
    fw_fires (r_task r) K_TCH_D false cur = trx_owns_opt L UL (other_subchan (r_lchan r)) fn.
Proof.
  intros r tn cur Hr Hm Htn Hok Hcur.
  destruct (row_at r tn cur Hr Htn Hok Hcur) as [L [cs [fr [HL [Ef [Et A]]]]]].
  exists L. split; [exact HL|]. cbv zeta. unfold fw_fires, trx_owns_opt, trx_owns. rewrite Ef, Et.
  unfold agree in A. rewrite Hm in A. cbv beta iota zeta in A |- *.
  rewrite !andb_true_iff, !Bool.eqb_true_iff in A. destruct A as [[[[[A1 A2] A3] A4] A5] A6].
  repeat split; assumption.
Qed.

Lemma sweep_kinds : forallb chk_row_kinds c11_rows = true.
Proof. vm_compute. reflexivity. Qed.

Lemma sweep_chan_nr : forallb (fun r => forallb (chk_row_chan_nr r) (range 0 8)) c11_rows = true.
Proof. vm_compute. reflexivity. Qed.

Lemma rows_chan_nr : forall r tn, In r c11_rows -> 0 <= tn < 8 ->
  fw_task_chan_nr (r_task r) tn = Z.lor (desc_chan_nr (r_lchan r)) tn /\ desc_link_id (r_lchan r) = 0 /\
  (forall s, r_sacch r = Some s -> desc_chan_nr s = desc_chan_nr (r_lchan r) /\ desc_link_id s = 64).
Proof.
  intros r tn Hr Htn.
  pose proof (forallb_range _ _ _ (forallb_In _ _ sweep_chan_nr r Hr) tn Htn) as H.
  unfold chk_row_chan_nr, tx_LID_SACCH in H. split; [lia|]. split; [lia|].
  intros s Es. rewrite Es in H. cbv iota in H. lia.
Qed.

Lemma sweep_resolver : forallb (fun c => trx_chan_nr2pchan c =? nth (Z.to_nat c) tx_resolve (-1)) (range 0 256) = true.
Proof. vm_compute. reflexivity. Qed.

Lemma sweep_resolve_rows : forallb (fun r => forallb (fun tn => chk_resolve r tn) (range 0 8)) c11_rows = true.
Proof. vm_compute. reflexivity. Qed.

Lemma tnrule_eqb_eq a b : tnrule_eqb a b = true -> a = b.
Proof. destruct a, b; try discriminate; reflexivity. Qed.
Lemma mode_eqb_eq a b : mode_eqb a b = true -> a = b.
Proof. destruct a, b; try discriminate; reflexivity. Qed.
Lemma optz_eqb_eq a b : optz_eqb a b = true -> a = b.
Proof. destruct a as [x|], b as [y|]; cbn [optz_eqb]; try discriminate; [intros H; apply Z.eqb_eq in H; subst; reflexivity | reflexivity]. Qed.

Lemma chan_nr_resolves r tn : In r c11_rows -> 0 <= tn < 8 ->
  let cfg := trx_chan_nr2pchan (fw_task_chan_nr (r_task r) tn) in
  if row_dedicated r then In (mk (r_task r) cfg (r_tn r) (r_mode r) (r_lchan r) (r_sacch r)) c11_rows else cfg = tx_GSM_PCHAN_NONE.
Proof.
  intros Hr Htn cfg.
  pose proof (forallb_range _ _ _ (forallb_In _ _ sweep_resolve_rows r Hr) tn Htn) as H.
  unfold chk_resolve in H. fold cfg in H. destruct (row_dedicated r); [|apply Z.eqb_eq; exact H].
  apply existsb_exists in H as [r' [Hin H]]. unfold same_chan in H.
  rewrite !andb_true_iff, !Z.eqb_eq in H. destruct H as [[[[[S1 S2] S3] S4] S5] Hc].
  apply optz_eqb_eq in S3. apply tnrule_eqb_eq in S4. apply mode_eqb_eq in S5.
  destruct r' as [t' c' n' m' l' s']. cbn [r_task r_cfg r_tn r_mode r_lchan r_sacch] in *. subst. exact Hin.
Qed.

(* The burst ids are checked on the rows themselves: from each row of the first period the next row of the same channel is searched
   in the rows that follow it in two_periods, so that the search runs through the end of the period. *)
Fixpoint next_same (d : dir) (c : Z) (l : list (Z*Z*Z*Z)) : option (Z*Z*Z*Z) :=
  match l with
  | [] => None
  | fr :: tl => if fr_chan d fr =? c then Some fr else next_same d c tl
  end.

Definition bid_ok (d : dir) (fr : Z*Z*Z*Z) (rest : list (Z*Z*Z*Z)) : bool :=
  let c := fr_chan d fr in
  let n := lchan_nbursts c in
  (c =? tx_L1SCHED_IDLE) || (0 <=? fr_bid d fr) && (fr_bid d fr <? n) &&
  match next_same d c rest with Some fr' => fr_bid d fr' =? (fr_bid d fr + 1) mod n | None => false end.

Definition chk_bids_rows (l : layout) : bool :=
  let F := two_periods l in
  negb (has_frames l) ||
  forallb (fun i => match nth_error F i with
                    | Some fr => bid_ok DL fr (skipn (S i) F) && bid_ok UL fr (skipn (S i) F)
                    | None => false
                    end) (seq 0 (Z.to_nat (ly_period l))).

Lemma sweep_bids : forallb chk_bids_rows tx_layouts = true.
Proof. vm_compute. reflexivity. Qed.

Lemma next_same_spec d c : forall l fr', next_same d c l = Some fr' ->
  exists k, nth_error l k = Some fr' /\ fr_chan d fr' = c /\
            forall j fr, (j < k)%nat -> nth_error l j = Some fr -> fr_chan d fr <> c.
Proof.
  induction l as [|fr tl IH]; intros fr' H; [discriminate|]. cbn [next_same] in H.
  destruct (fr_chan d fr =? c) eqn:E.
  - injection H as <-. exists 0%nat. split; [reflexivity|]. split; [lia|]. intros j f Hj; lia.
  - destruct (IH _ H) as [k [Hk [Hc Hall]]]. exists (S k). split; [exact Hk|]. split; [exact Hc|].
    intros [|j] f Hj Hf; [injection Hf as <-; lia | apply (Hall j f); [lia | exact Hf]].
Qed.

Lemma bids_cyclic : forall L d i k fr fr',
  In L tx_layouts -> ly_cfg L <> tx_GSM_PCHAN_NONE -> 0 <= i < ly_period L -> 1 <= k ->
  trx_frame L i = FrOk fr -> fr_chan d fr <> tx_L1SCHED_IDLE ->
  trx_frame L (i + k) = FrOk fr' -> fr_chan d fr' = fr_chan d fr ->
  (forall j frj, 1 <= j < k -> trx_frame L (i + j) = FrOk frj -> fr_chan d frj <> fr_chan d fr) ->
  0 <= fr_bid d fr < lchan_nbursts (fr_chan d fr) /\
  fr_bid d fr' = (fr_bid d fr + 1) mod lchan_nbursts (fr_chan d fr).
Proof.
  intros L d i k fr fr' HL Hc Hi Hk Hfr Hidle Hfr' Hsame Hmin.
  pose proof (forallb_In _ _ sweep_bids L HL) as H. unfold chk_bids_rows in H. cbv zeta in H.
  rewrite (has_frames_true L Hc) in H. cbn [negb orb] in H.
  pose proof (frames_twice L) as TW. set (F := two_periods L) in *.
  apply (TW i fr HL Hc ltac:(lia)) in Hfr.
  pose proof (forallb_In _ _ H (Z.to_nat i) ltac:(apply in_seq; lia)) as G0. cbv beta in G0. rewrite Hfr in G0.
  assert (G : bid_ok d fr (skipn (S (Z.to_nat i)) F) = true) by (destruct d; lia). clear G0. unfold bid_ok in G. cbv zeta in G.
  destruct (next_same d (fr_chan d fr) (skipn (S (Z.to_nat i)) F)) as [f0|] eqn:EN; [|lia].
  destruct (next_same_spec _ _ _ _ EN) as [k' [Hk' [Hc0 Hall]]]. rewrite nth_error_skipn in Hk'.
  (* the row found is row i + k0 of the lookup, and k0 is the given k, the least of its kind *)
  assert (B : (S (Z.to_nat i) + k' < length F)%nat) by (apply nth_error_Some; congruence).
  unfold F in B. rewrite (two_periods_length L HL Hc) in B.
  assert (Hf0 : trx_frame L (i + Z.of_nat (S k')) = FrOk f0).
  { apply (TW _ f0 HL Hc); [lia|]. replace (Z.to_nat (i + Z.of_nat (S k'))) with (S (Z.to_nat i) + k')%nat by lia. exact Hk'. }
  assert (k = Z.of_nat (S k')).
  { destruct (Z.lt_trichotomy k (Z.of_nat (S k'))) as [Hlt|[Heq|Hgt]]; [|exact Heq|].
    - exfalso. apply (TW (i + k) fr' HL Hc ltac:(lia)) in Hfr'.
      apply (Hall (Z.to_nat (k - 1)) fr' ltac:(lia)); [|exact Hsame].
      rewrite nth_error_skipn. replace (S (Z.to_nat i) + Z.to_nat (k - 1))%nat with (Z.to_nat (i + k)) by lia. exact Hfr'.
    - exfalso. apply (Hmin (Z.of_nat (S k')) f0 ltac:(lia) Hf0 Hc0). }
  subst k. rewrite Hf0 in Hfr'. injection Hfr' as <-. lia.
Qed.

(* characterises Model first_same, the search of the model's own checker chk_bids; nothing here uses it *)
Lemma first_same_spec l d c i : forall fuel k0 k, first_same l d c i k0 fuel = Some k ->
  k0 <= k < k0 + Z.of_nat fuel /\
  (exists fr, trx_frame l (i + k) = FrOk fr /\ fr_chan d fr = c) /\
  (forall j, k0 <= j < k -> exists fr, trx_frame l (i + j) = FrOk fr /\ fr_chan d fr <> c).
Proof.
  induction fuel as [|f IH]; intros k0 k H; [discriminate|].
  cbn [first_same] in H. destruct (trx_frame l (i + k0)) as [| |fr] eqn:E; try discriminate.
  destruct (fr_chan d fr =? c) eqn:Ec.
  - injection H as <-. apply Z.eqb_eq in Ec. split; [lia|]. split; [exists fr; auto|]. intros j Hj; lia.
  - apply Z.eqb_neq in Ec. destruct (IH _ _ H) as [Hk [Hfr Hall]]. split; [lia|]. split; [exact Hfr|].
    intros j Hj. destruct (Z.eq_dec j k0) as [->|Hne]; [exists fr; auto | apply Hall; lia].
Qed.

(* non-vacuity: concrete instances *)
Example ex_sdcch4_0_dl : fw_fires fw_MF_TASK_SDCCH4_0 K_NB_DL false 20 = true /\ fw_fires fw_MF_TASK_SDCCH4_0 K_NB_DL false 21 = false /\
  fw_fires fw_MF_TASK_SDCCH4_0 K_NB_UL true 55 = true /\ fw_fires fw_MF_TASK_TCH_H_1 K_TCH_A true 2715647 = false /\
  fw_fires fw_MF_TASK_TCH_F_ODD K_TCH_A true 23 = true.
Proof. vm_compute. repeat split; reflexivity. Qed.
