(* C05: request framing, one reply per CMD datagram, status table for well-formed (decimal) arguments *)
From Coq Require Import ZArith List Bool Lia ZifyBool.
From OBB Require Import Base.Lists Gen.TrxdConst Gen.FakeTrxConst Model.Trxd Model.Trx Proofs.TrxdBase Proofs.TrxDrop Proofs.TrxInv.
Import ListNotations.
Open Scope Z_scope.

Definition ascii (d : list Z) : Prop := Forall (fun c => 0 <= c <= 127) d.
(* w is not used *)
Definition tokens (w : world) (data : list Z) : list (list Z) :=
  split_sp (strip is_nul (strip is_ws (skipn 4 (firstn (Z.to_nat ctrl_recv_size) data)))) [].

Lemma split_sp_nonempty : forall l cur, split_sp l cur <> [].
Proof. induction l as [|c r IH]; intros cur; cbn [split_sp]; [discriminate|]. destruct (c =? 32); [discriminate|apply IH]. Qed.

Lemma ascii_existsb d : ascii d -> existsb (fun c => (c <? 0) || (127 <? c)) (firstn (Z.to_nat ctrl_recv_size) d) = false.
Proof.
  intros H. apply not_true_is_false. intros E. apply existsb_exists in E as [c [Hc Hb]]. apply In_firstn in Hc.
  unfold ascii in H. rewrite Forall_forall in H. apply H in Hc. lia.
Qed.

Theorem one_reply w i data draws : wf_world w -> (i < length (w_trx w))%nat -> ascii data ->
  let '(w', out, _) := handle_rx w i data draws in
  (starts s_CMD (firstn (Z.to_nat ctrl_recv_size) data) = false -> out = RNone /\ w' = w) /\
  (starts s_CMD (firstn (Z.to_nat ctrl_recv_size) data) = true ->
     exists verb args rc extra, tokens w data = verb :: args /\
       out = RReply (s_RSP ++ join_sp (verb :: py_str rc :: args ++ extra) ++ [0])).
Proof.
  intros Hw Hi Ha. unfold handle_rx, tokens. rewrite (ascii_existsb data Ha).
  destruct (starts s_CMD (firstn (Z.to_nat ctrl_recv_size) data)); cbn [negb]; [|split; [auto|discriminate]].
  set (req := split_sp _ []). pose proof (parse_cmd_inv w i req draws Hw Hi) as Hinv.
  destruct (parse_cmd w i req draws) as [[w' r] d']. destruct Hinv as [Hw' [_ Hnc]].
  destruct req as [|verb args] eqn:Et; [exfalso; exact (split_sp_nonempty _ _ Et)|].
  destruct r as [rc extra| |]; [| |congruence]; (split; [discriminate|]); intros _; cbn [hd tl]; rewrite (send_reply w' i _ Hw').
  - exists verb, args, rc, extra. split; reflexivity.
  - exists verb, args, (-1), []. split; [reflexivity|]. rewrite app_nil_r. reflexivity.
Qed.

(* the reply ends with NUL *)
Lemma reply_nul_terminated verb args rc extra : exists body, s_RSP ++ join_sp (verb :: py_str rc :: args ++ extra) ++ [0] = body ++ [0].
Proof. exists (s_RSP ++ join_sp (verb :: py_str rc :: args ++ extra)). rewrite <- app_assoc. reflexivity. Qed.

(* evaluates every verb test in the goal whose request starts with a concrete verb *)
Ltac eval_verb_tests :=
  repeat match goal with
  | |- context [verb_is (?v :: ?a) ?nm ?n] =>
      let r := eval lazy in (list_eqb v nm && Nat.eqb (length a) n) in change (verb_is (v :: a) nm n) with r
  | |- context [verb_va (?v :: ?a) ?nm ?n] =>
      let r := eval lazy in (list_eqb v nm && Nat.leb n (length a)) in change (verb_va (v :: a) nm n) with r
  end; cbv iota.

Lemma arg1 v a r : arg (v :: py_str a :: r) 1 = Some a.
Proof. unfold arg. cbn [nth_error]. apply py_int_str. Qed.
Lemma arg2 v a b r : arg (v :: a :: py_str b :: r) 2 = Some b.
Proof. unfold arg. cbn [nth_error]. apply py_int_str. Qed.

Lemma all_ints_str : forall l, all_ints (map py_str l) = Some l.
Proof. induction l as [|x r IH]; cbn [map all_ints]; [reflexivity|]. rewrite py_int_str, IH. reflexivity. Qed.

(* the dispatch table: (verb, argument count) of every test of the two handlers but SETFH, which takes four arguments or more *)
Definition fake_cmds : list (list Z * nat) :=
  [(v_SETTA, 1); (v_FAKE_TOA, 2); (v_FAKE_TOA, 1); (v_FAKE_RSSI, 2); (v_FAKE_RSSI, 1); (v_FAKE_CI, 2); (v_FAKE_CI, 1);
   (v_FAKE_DROP, 1); (v_FAKE_DROP, 2); (v_FAKE_TRXC_DELAY, 1)]%nat.
Definition common_cmds : list (list Z * nat) :=
  [(v_POWERON, 0); (v_POWEROFF, 0); (v_RXTUNE, 1); (v_TXTUNE, 1); (v_MEASURE, 1); (v_SETFORMAT, 1); (v_SETPOWER, 1); (v_NOMTXPOWER, 0); (v_RFMUTE, 1)]%nat.

(* commands the simulation handler does not know fall through without touching the simulation parameters *)
Lemma fake_handler_other s req : forallb (fun c => negb (verb_is req (fst c) (snd c))) fake_cmds = true -> fake_handler s req = (s, None).
Proof.
  intros H. assert (E : forall v n, In (v, n) fake_cmds -> verb_is req v n = false)
    by (intros v n Hin; apply (proj1 (forallb_forall _ _) H), negb_true_iff in Hin; exact Hin).
  unfold fake_handler. rewrite !E by (repeat (first [left; reflexivity|right])). reflexivity.
Qed.

(* says that transceiver i of w is t, nothing about the simulation parameters *)
Definition sim_unchanged (w : world) (i : nat) (t : trx) : Prop := nth_error (w_trx w) i = Some t.

(* parse_cmd on a request whose concrete verb the simulation handler does not know: the common handler's chain is left *)
Ltac start_cmd t Et :=
  unfold parse_cmd; rewrite Et;
  rewrite fake_handler_other by reflexivity;
  rewrite (upd_trx_same _ _ t Et), set_sim_same.

Lemma pairs_flat : forall ma : list (Z * Z), pairs (flat_map (fun p => [fst p; snd p]) ma) = ma.
Proof. induction ma as [|[a b] r IH]; cbn [flat_map pairs app fst snd]; [reflexivity|]. rewrite IH. reflexivity. Qed.

Lemma pairs_scaled (f : Z -> Z) : forall ma : list (Z * Z),
  pairs (map f (flat_map (fun p => [fst p; snd p]) ma)) = map (fun p => (f (fst p), f (snd p))) ma.
Proof. induction ma as [|[a b] r IH]; cbn [flat_map map pairs app fst snd]; [reflexivity|]. rewrite IH. reflexivity. Qed.

(* a request that matches no line of the dispatch table - an unknown verb, or a known one with another argument count - is
   acknowledged with 0 and changes nothing *)
Lemma cmd_other w i t req draws : nth_error (w_trx w) i = Some t ->
  (forall v n, In (v, n) (fake_cmds ++ common_cmds) -> verb_is req v n = false) -> verb_va req v_SETFH 4 = false ->
  parse_cmd w i req draws = (w, CStatus 0 [], draws).
Proof.
  intros Et H1 H2. unfold parse_cmd. rewrite Et.
  rewrite fake_handler_other by (apply forallb_forall; intros [v n] Hin; cbn [fst snd]; rewrite H1 by (apply in_or_app; left; exact Hin); reflexivity).
  assert (E : forall v n, In (v, n) common_cmds -> verb_is req v n = false) by (intros v n Hc; apply H1, in_or_app; right; exact Hc).
  rewrite (upd_trx_same _ _ t Et). rewrite !E, H2 by (repeat (first [left; reflexivity|right])). reflexivity.
Qed.
