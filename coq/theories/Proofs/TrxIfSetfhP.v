(* trxcon's SETFH composer (trx_if_cmd_setfh, the consumer of the decoded hopping list; C20, C05): the command carries exactly the
   list it was given, or nothing is queued; the text written to ma_buf never exceeds the room *)
From Coq Require Import ZArith List Bool Lia ZifyBool.
From OBB Require Import Gen.FakeTrxConst Gen.TrxIfConst Model.Trxd Model.TrxIf Proofs.TrxdBase Proofs.TrxIfP Proofs.TrxIfCtrlP.
Import ListNotations.
Open Scope Z_scope.

(* one channel of the list, as printed: "<rx kHz> <tx kHz> " *)
Definition setfh_pair (a : Z) : list Z := dec_u (arfcn2freq10 a false * 100) ++ [SP] ++ dec_u (arfcn2freq10 a true * 100) ++ [SP].
Definition setfh_pairs (ma : list Z) : list Z := concat (map setfh_pair ma).
Definition freq_defined (a : Z) : Prop := arfcn2freq10 a false <> 65535 /\ arfcn2freq10 a true <> 65535.

Lemma setfh_pairs_cons a ma : setfh_pairs (a :: ma) = setfh_pair a ++ setfh_pairs ma.
Proof. reflexivity. Qed.

Lemma c_setfh_ma_spec ma : forall room acc rc txt, c_setfh_ma ma room acc = (rc, txt) ->
  (rc = 0 /\ txt = acc ++ setfh_pairs ma /\ Forall freq_defined ma /\ Z.of_nat (length (setfh_pairs ma)) <= Z.max room 0)
  \/ (rc = E_INVAL /\ ~ Forall freq_defined ma)
  \/ (rc = E_NOSPC /\ room < Z.of_nat (length (setfh_pairs ma))).
Proof.
  induction ma as [|a ma IH]; intros room acc rc txt H; cbn [c_setfh_ma] in H.
  - injection H as <- <-. left. rewrite app_nil_r. split; [reflexivity|split; [reflexivity|split; [constructor|cbn; lia]]].
  - rewrite setfh_pairs_cons, app_length.
    destruct ((arfcn2freq10 a false =? 65535) || (arfcn2freq10 a true =? 65535)) eqn:Eu.
    { injection H as <- _. right. left. split; [reflexivity|]. intros Hf. inversion Hf as [|? ? [H1 H2] _]; subst. lia. }
    fold (setfh_pair a) in H. destruct (Z.of_nat (length (setfh_pair a)) >? room) eqn:E.
    { injection H as <- _. right. right. split; [reflexivity|lia]. }
    apply IH in H as [[-> [-> [Hf Hl]]] | [[-> Hn] | [-> Hl]]].
    + left. split; [reflexivity|]. split; [symmetry; apply app_assoc|]. split; [|lia]. constructor; [split; lia|exact Hf].
    + right. left. split; [reflexivity|]. intros Hf. inversion Hf; subst. contradiction.
    + right. right. split; [reflexivity|lia].
Qed.

(* the whole command: status 0 means exactly ONE queued command whose arguments are HSN, MAIO and the pairs of EVERY channel of the
   list in order (only the trailing space cut); any other status means nothing was queued *)
Theorem setfh_carries_list hsn maio ma rc q :
  c_phyif_cmd (PSetFreqH1 hsn maio ma) = CmdQ rc q ->
  (rc = 0 -> ma <> [] /\ Forall freq_defined ma /\ Z.of_nat (length (setfh_pairs ma)) <= 999 /\
             q = [(true, c_ctrl_cmd v_SETFH (dec_u (u8 hsn) ++ [SP] ++ dec_u (u8 maio) ++ [SP] ++ removelast (setfh_pairs ma)))]) /\
  (rc <> 0 -> q = [] /\ (ma = [] \/ ~ Forall freq_defined ma \/ 999 < Z.of_nat (length (setfh_pairs ma)))).
Proof.
  intros Hc. cbn [c_phyif_cmd] in Hc. destruct ma as [|a ma].
  - injection Hc as <- <-. split; [unfold E_INVAL; discriminate|]. intros _. split; [reflexivity|left; reflexivity].
  - change trxc_buf_size with 1024 in Hc.
    destruct (c_setfh_ma (a :: ma) (1024 - 24 - 1) []) as [rc' txt] eqn:Em.
    apply c_setfh_ma_spec in Em as [[-> [-> [Hf Hl]]] | [[-> Hn] | [-> Hl]]]; cbn [negb Z.eqb E_INVAL E_NOSPC] in Hc; injection Hc as <- <-.
    + split; [|intros H; congruence]. intros _. split; [discriminate|]. split; [exact Hf|]. split; [lia|reflexivity].
    + split; [discriminate|]. intros _. split; [reflexivity|]. right. left. exact Hn.
    + split; [discriminate|]. intros _. split; [reflexivity|]. right. right. lia.
Qed.

Lemma dec_u8_len n : (length (dec_u (u8 n)) <= 3)%nat.
Proof. unfold dec_u, u8. rewrite rev_length. apply (dec_rev_len 40 _ 2). change (10 ^ Z.of_nat 3) with 1000. pose proof (Z.mod_pos_bound n 256 eq_refl). lia. Qed.

Lemma c_ctrl_cmd_len V args : (length (c_ctrl_cmd V args) <= length (s_CMD ++ V ++ [SP] ++ args))%nat.
Proof.
  unfold c_ctrl_cmd. destruct args as [|a args]; rewrite firstn_length, !app_length; cbn [length]; lia.
Qed.

(* whatever the hopping parameters, the SETFH command has at most 1016 = 4+5+1+3+1+3+1+998 characters (1017 octets with the NUL): it always fits
   trxcon's own cmd[1024] and is never truncated by snprintf *)
Theorem setfh_len_bound hsn maio ma rc q crit text :
  c_phyif_cmd (PSetFreqH1 hsn maio ma) = CmdQ rc q -> In (crit, text) q -> (length text <= 1016)%nat.
Proof.
  intros Hc Hin. apply setfh_carries_list in Hc as [H0 Hn].
  destruct (Z.eq_dec rc 0) as [E|E]; [|destruct (Hn E) as [-> _]; destruct Hin].
  destruct (H0 E) as [_ [_ [Hl ->]]]. destruct Hin as [Ein | []]. injection Ein as <- <-.
  assert (Hrl : (length (removelast (setfh_pairs ma)) <= 998)%nat).
  { destruct (setfh_pairs ma) as [|x p] using rev_ind; [cbn; lia|]. rewrite removelast_last. rewrite app_length in Hl. cbn [length] in Hl. lia. }
  pose proof (dec_u8_len hsn) as H1. pose proof (dec_u8_len maio) as H2.
  eapply Nat.le_trans; [apply c_ctrl_cmd_len|].
  unfold s_CMD, v_SETFH. repeat (rewrite app_length || cbn [length app]). lia.
Qed.

(* 62 channels of the DCS band fit, 63 do not (16 characters per pair, 999 characters of room) *)
Example setfh_dcs_62_63 :
  length (setfh_pairs (map (fun i => 512 + Z.of_nat i) (seq 0 62))) = 992%nat /\
  length (setfh_pairs (map (fun i => 512 + Z.of_nat i) (seq 0 63))) = 1008%nat.
Proof. split; vm_compute; reflexivity. Qed.

(* the two sides of the control link together: trxcon's longest command fits the toolkit's receive size *)
Lemma recv_size_ok : 1017 <= ctrl_recv_size.
Proof. vm_compute. discriminate. Qed.

Lemma setfh_fits hsn maio ma rc q crit text :
  c_phyif_cmd (PSetFreqH1 hsn maio ma) = CmdQ rc q -> In (crit, text) q -> Z.of_nat (length text) + 1 <= ctrl_recv_size.
Proof. intros Hc Hin. pose proof (setfh_len_bound hsn maio ma rc q crit text Hc Hin). pose proof recv_size_ok. lia. Qed.
