(* C16, direction encode -> decode: for every definition (flat, bit-field sets, nesting, sequences,
   presence / length callbacks) decoding the encoding of fitting values returns those values and consumes exactly
   the octets of the encoding.  `fits` puts well-formedness, "the values fit" and "what the decoder will store"
   into one inductive relation over the nested definition.
   Fuel is dealt with once: `egood` / `dgood` say what the evaluators return whenever the fuel exceeds the size of
   the definition (plus the input), and one step lemma each walks a definition field by field. *)
From Coq Require Import ZArith List Bool Lia.
From OBB Require Import Base.Lists Model.Codec Proofs.CodecInt Proofs.CodecBits.
Import ListNotations.
Open Scope Z_scope.

Lemma bind_ok {A B} (r:res A) (f:A -> res B) b : (x <- r ;; f x) = Ok b -> exists a, r = Ok a /\ f a = Ok b.
Proof. destruct r; cbn [bind]; try discriminate. eauto. Qed.
Lemma wrapE_ok {A} (r:res A) b : wrapE r = Ok b -> r = Ok b.
Proof. destruct r; cbn [wrapE]; try discriminate. auto. Qed.
Lemma wrapD_ok {A} (r:res A) b : wrapD r = Ok b -> r = Ok b.
Proof. destruct r; cbn [wrapD]; try discriminate. auto. Qed.

Lemma get_len_fixlen l e L n : get_len l e L = Ok n -> fixlen l = O \/ fixlen l = n.
Proof. destruct l as [[|m]| | |]; cbn [get_len fixlen]; intros H; try (left; reflexivity). right. congruence. Qed.

Lemma get_len_fix n e L : (1 <= n)%nat -> get_len (LFix n) e L = Ok n.
Proof. destruct n; [lia|reflexivity]. Qed.

Lemma lsize_cons f fs : lsize (f :: fs) = (fsize f + lsize fs)%nat.
Proof. reflexivity. Qed.
Lemma fsize_pos f : (1 <= fsize f)%nat.
Proof. destruct f; cbn [fsize]; lia. Qed.
Lemma fsize_env nm l p chk body : fsize (FEnv nm l p chk body) = S (lsize body).
Proof. reflexivity. Qed.
Lemma fsize_seq nm l p item : fsize (FSeq nm l p item) = S (S (lsize item)).
Proof. reflexivity. Qed.

Lemma snoc_app {A} (l:list A) x r : l ++ x :: r = (l ++ [x]) ++ r.
Proof. exact (app_assoc l [x] r). Qed.

(* callbacks only look at what is already there *)
Lemma tab_get_ext {A B} k (t:list (Z*A)) e0 x (f:A -> res B) r : tab_get k t e0 f = Ok r -> tab_get k t (e0 ++ x) f = Ok r.
Proof.
  unfold tab_get. rewrite lookup_app. destruct (lookup k e0) as [v|]; [auto|discriminate].
Qed.
Lemma get_pres_ext p e0 x b : get_pres p e0 = Ok b -> get_pres p (e0 ++ x) = Ok b.
Proof. destruct p; cbn [get_pres]; [auto|apply tab_get_ext]. Qed.
(* the length of a spare does not depend on the buffer *)
Lemma spare_len_canon l e e0 x L n : get_len l e O = Ok n -> get_len l e0 L = Ok n -> get_len l (e0 ++ x) O = Ok n.
Proof. destruct l as [[|m]| | |]; cbn [get_len]; auto. intros _. apply tab_get_ext. Qed.

(* the dict a message ends up in: what was there, what the field stored, what later fields and the caller add *)
Lemma pres_mid p e0 x y z b : get_pres p e0 = Ok b -> get_pres p (((e0 ++ x) ++ y) ++ z) = Ok b.
Proof. intros H. rewrite <- !app_assoc. apply get_pres_ext, H. Qed.
Lemma lookup_mid nm v e0 x y : lookup nm e0 = None -> lookup nm (((e0 ++ [(nm, v)]) ++ x) ++ y) = Some v.
Proof. intros H. rewrite !lookup_app, H. cbn [lookup]. rewrite Nat.eqb_refl. reflexivity. Qed.

Definition egood (fs:list field) (e:env) (b:list Z) : Prop := forall k, (lsize fs < k)%nat -> enc k fs e = Ok b.

Lemma egood_nil e : egood [] e [].
Proof. intros k Hk. destruct k; [lia|reflexivity]. Qed.

Lemma egood_absent f fs e b : get_pres (fpres f) e = Ok false -> egood fs e b -> egood (f :: fs) e b.
Proof.
  intros Hp He k Hk. destruct k as [|k]; [lia|]. rewrite lsize_cons in Hk. pose proof (fsize_pos f).
  cbn [enc]. unfold enc_field. rewrite Hp, (He k) by lia. reflexivity.
Qed.

(* one present field; the nested encoder then has at least fsize f fuel *)
Lemma egood_step f fs e here b :
  get_pres (fpres f) e = Ok true -> (forall k, (fsize f <= k)%nat -> enc_payload (enc k) f e = Ok here) ->
  (fixlen_f f = O \/ fixlen_f f = length here) ->
  egood fs e b -> egood (f :: fs) e (here ++ b).
Proof.
  intros Hp Hpay Hl He k Hk. destruct k as [|k]; [lia|]. rewrite lsize_cons in Hk. pose proof (fsize_pos f).
  assert (Hf : enc_field (enc k) f e = Ok here).
  { unfold enc_field. rewrite Hp, Hpay by lia. cbn [bind negb].
    destruct Hl as [->| ->]; [reflexivity|]. destruct (length here) eqn:E; [reflexivity|]. rewrite Nat.eqb_refl. reflexivity. }
  cbn [enc]. rewrite Hf, (He k) by lia. reflexivity.
Qed.

(* the step for each kind of field, from a value of the right type under its name *)
Lemma enc_payload_uint rec nm l p le sg off mult e raw : mult <> 0 -> lookup nm e = Some (VInt (raw * mult + off)) ->
  enc_payload rec (FUint nm l p le sg off mult) e = enc_int (fixlen l) le sg raw.
Proof. intros Hm Hl. cbn [enc_payload]. rewrite Hl. destruct (Z.eqb_spec mult 0); [contradiction|]. rewrite offmult_rt by exact Hm. reflexivity. Qed.

Lemma egood_uint nm n p le sg off mult raw bs fs e b : get_pres p e = Ok true -> (1 <= n)%nat -> mult <> 0 ->
  lookup nm e = Some (VInt (raw * mult + off)) -> enc_int n le sg raw = Ok bs ->
  egood fs e b -> egood (FUint nm (LFix n) p le sg off mult :: fs) e (bs ++ b).
Proof.
  intros Hp Hn Hm Hl Hbs He. apply egood_step; [exact Hp| |right; symmetry; apply (int_rt _ _ _ _ _ Hn Hbs)|exact He].
  intros k _. rewrite (enc_payload_uint _ _ _ _ _ _ _ _ _ raw Hm Hl). exact Hbs.
Qed.

Lemma egood_buf nm l p bb fs e e0 L b : get_pres p e = Ok true -> lookup nm e = Some (VBytes bb) ->
  get_len l e0 L = Ok (length bb) -> egood fs e b -> egood (FBuf nm l p :: fs) e (bb ++ b).
Proof.
  intros Hp Hl Hgl He. apply egood_step; [exact Hp| |cbn [fixlen_f flen]; eapply get_len_fixlen, Hgl|exact He].
  intros k _. cbn [enc_payload]. rewrite Hl. reflexivity.
Qed.

Lemma egood_spare l p filler n fs e b : get_pres p e = Ok true -> get_len l e O = Ok n ->
  egood fs e b -> egood (FSpare l p filler :: fs) e (repeat filler n ++ b).
Proof.
  intros Hp Hge He. apply egood_step; [exact Hp| |cbn [fixlen_f flen]; rewrite repeat_length; eapply get_len_fixlen, Hge|exact He].
  intros k _. cbn [enc_payload]. rewrite Hge. reflexivity.
Qed.

Lemma egood_bits l p lsb bfs blob fs e b : get_pres p e = Ok true -> (1 <= bits_len l bfs)%nat ->
  enc_bits (bits_layout l lsb bfs) e 0 = Ok blob -> 0 <= blob < 256 ^ Z.of_nat (bits_len l bfs) ->
  egood fs e b -> egood (FBits l p lsb bfs :: fs) e (to_be (bits_len l bfs) blob ++ b).
Proof.
  intros Hp Hn Hb1 Hb2 He. apply egood_step; [exact Hp| |right; cbn [fixlen_f]; rewrite to_be_length; reflexivity|exact He].
  intros k _. cbn [enc_payload]. rewrite Hb1. apply enc_uint_be; assumption.
Qed.

Lemma egood_env nm l p chk body d bd fs e e0 L b : get_pres p e = Ok true -> lookup nm e = Some (VDict d) ->
  egood body d bd -> get_len l e0 L = Ok (length bd) -> egood fs e b -> egood (FEnv nm l p chk body :: fs) e (bd ++ b).
Proof.
  intros Hp Hl Hbd Hgl He. apply egood_step; [exact Hp| |cbn [fixlen_f flen]; eapply get_len_fixlen, Hgl|exact He].
  intros k Hk. rewrite fsize_env in Hk. cbn [enc_payload]. rewrite Hl, Hbd by lia. reflexivity.
Qed.

Lemma egood_seq nm l p item vs bi fs e e0 L b : get_pres p e = Ok true -> lookup nm e = Some (VList vs) ->
  (forall k, (lsize item < k)%nat -> enc_items (enc k item) vs = Ok bi) -> get_len l e0 L = Ok (length bi) ->
  egood fs e b -> egood (FSeq nm l p item :: fs) e (bi ++ b).
Proof.
  intros Hp Hl Hbi Hgl He. apply egood_step; [exact Hp| |cbn [fixlen_f flen]; eapply get_len_fixlen, Hgl|exact He].
  intros k Hk. rewrite fsize_seq in Hk. cbn [enc_payload]. rewrite Hl. apply Hbi. lia.
Qed.

Definition dgood (fs:list field) (e0:env) (data:list Z) (cv:env) (n:nat) : Prop :=
  forall fd, (lsize fs + length data < fd)%nat -> dec fd fs e0 data = Ok (e0 ++ cv, n).
Definition ditems (item:list field) (data:list Z) (vcs:list val) : Prop :=
  forall fd, (lsize item + length data + 1 < fd)%nat -> dec_seq fd item data = Ok vcs.

Lemma dgood_nil e0 data : dgood [] e0 data [] 0.
Proof. intros fd Hfd. destruct fd; [lia|]. cbn [dec]. rewrite app_nil_r. reflexivity. Qed.

Lemma dgood_absent f fs e0 data cv n : get_pres (fpres f) e0 = Ok false -> dgood fs e0 data cv n -> dgood (f :: fs) e0 data cv n.
Proof.
  intros Hp Hg fd Hfd. destruct fd as [|k]; [lia|]. rewrite lsize_cons in Hfd. pose proof (fsize_pos f).
  cbn [dec]. unfold dec_field. rewrite Hp. cbn [bind negb fst snd skipn]. rewrite (Hg k) by lia. reflexivity.
Qed.

(* one present field read from exactly its own chunk; the nested decoders then have at least fsize f + |chunk| fuel *)
Lemma dgood_step f fs e0 here tail cvf cv m :
  get_pres (fpres f) e0 = Ok true -> get_len_f f e0 (length (here ++ tail)) = Ok (length here) ->
  (forall k, (fsize f + length here <= k)%nat -> dec_payload (dec k) (dec_seq k) f e0 here = Ok (e0 ++ cvf)) ->
  dgood fs (e0 ++ cvf) tail cv m ->
  dgood (f :: fs) e0 (here ++ tail) (cvf ++ cv) (length here + m).
Proof.
  intros Hp Hl Hpay Hg fd Hfd. destruct fd as [|k]; [lia|]. rewrite lsize_cons, app_length in Hfd. pose proof (fsize_pos f).
  cbn [dec]. unfold dec_field. rewrite Hp. cbn [bind negb]. rewrite Hl. cbn [bind].
  replace (Nat.ltb (length (here ++ tail)) (length here)) with false by (symmetry; apply Nat.ltb_ge; rewrite app_length; lia).
  rewrite firstn_app_len, Hpay by lia. cbn [bind fst snd]. rewrite skipn_app_len, (Hg k) by lia.
  cbn [bind fst snd]. rewrite app_assoc. reflexivity.
Qed.

Lemma ditems_nil item : ditems item [] [].
Proof. intros fd Hfd. destruct fd; [lia|]. reflexivity. Qed.

Lemma ditems_cons item b1 bs dcv vcs : dgood item [] (b1 ++ bs) dcv (length b1) -> (1 <= length b1)%nat -> ditems item bs vcs ->
  ditems item (b1 ++ bs) (VDict dcv :: vcs).
Proof.
  intros Hd Hl Hi fd Hfd. destruct fd as [|k]; [lia|]. rewrite app_length in Hfd.
  specialize (Hd k ltac:(rewrite app_length; lia)). specialize (Hi k ltac:(lia)).
  destruct b1 as [|x b1]; [cbn [length] in Hl; lia|]. cbn [dec_seq app] in *. rewrite Hd.
  cbn [wrapD bind fst snd length skipn]. rewrite skipn_app_len by reflexivity. rewrite Hi. reflexivity.
Qed.

Lemma encode_egood fs e b : proto_ok fs = true -> egood fs e b -> encode fs e = Ok b.
Proof. intros Hpo He. unfold encode. rewrite Hpo, (He (enc_fuel fs)) by (unfold enc_fuel; lia). reflexivity. Qed.

Lemma decode_dgood chk fs data cv n : proto_ok fs = true -> dgood fs [] data cv n ->
  decode chk fs data = (if chk && negb (Nat.eqb (length data) n) then DecodeErr 0 else Ok (cv, n)).
Proof. intros Hpo Hd. unfold decode. rewrite Hpo, (Hd (dec_fuel fs data)) by (unfold dec_fuel; lia). reflexivity. Qed.

(* fits fs e e0 R cv u : encoding fs from dict e succeeds with u octets, and decoding those octets followed by
   R more, starting from the dict e0, appends cv (R matters only for lengths that look at the remaining buffer).
   One constructor per field kind; nested bodies are premises. *)
Inductive fits : list field -> env -> env -> nat -> env -> nat -> Prop :=
| fits_nil e e0 R : fits [] e e0 R [] 0
| fits_absent f fs e e0 R cv u :
    get_pres (fpres f) e = Ok false -> get_pres (fpres f) e0 = Ok false ->
    fits fs e e0 R cv u -> fits (f :: fs) e e0 R cv u
| fits_uint nm n p le sg off mult raw fs e e0 R cv u :
    get_pres p e = Ok true -> get_pres p e0 = Ok true ->
    (1 <= n)%nat -> mult <> 0 -> lookup nm e = Some (VInt (raw * mult + off)) -> int_range n sg raw ->
    fits fs e (e0 ++ [(nm, VInt (raw * mult + off))]) R cv u ->
    fits (FUint nm (LFix n) p le sg off mult :: fs) e e0 R ((nm, VInt (raw * mult + off)) :: cv) (n + u)
| fits_buf nm l p b fs e e0 R cv u :
    get_pres p e = Ok true -> get_pres p e0 = Ok true ->
    lookup nm e = Some (VBytes b) -> get_len l e0 (length b + u + R) = Ok (length b) ->
    fits fs e (e0 ++ [(nm, VBytes b)]) R cv u ->
    fits (FBuf nm l p :: fs) e e0 R ((nm, VBytes b) :: cv) (length b + u)
| fits_spare l p filler n fs e e0 R cv u :
    get_pres p e = Ok true -> get_pres p e0 = Ok true ->
    get_len l e O = Ok n -> get_len l e0 (n + u + R) = Ok n ->
    fits fs e e0 R cv u ->
    fits (FSpare l p filler :: fs) e e0 R cv (n + u)
| fits_bits l p lsb bfs bcv fs e e0 R cv u :
    get_pres p e = Ok true -> get_pres p e0 = Ok true ->
    bits_wf l bfs -> bits_fit (bits_order lsb bfs) e bcv ->
    fits fs e (e0 ++ bcv) R cv u ->
    fits (FBits l p lsb bfs :: fs) e e0 R (bcv ++ cv) (bits_len l bfs + u)
| fits_envf nm l p chk body d dcv n fs e e0 R cv u :
    get_pres p e = Ok true -> get_pres p e0 = Ok true ->
    lookup nm e = Some (VDict d) -> fits body d [] 0 dcv n -> NoDup (keys dcv) ->
    get_len l e0 (n + u + R) = Ok n ->
    fits fs e (e0 ++ [(nm, VDict dcv)]) R cv u ->
    fits (FEnv nm l p chk body :: fs) e e0 R ((nm, VDict dcv) :: cv) (n + u)
| fits_seqf nm l p item vs vcs n fs e e0 R cv u :
    get_pres p e = Ok true -> get_pres p e0 = Ok true ->
    lookup nm e = Some (VList vs) -> fits_items item vs vcs n ->
    get_len l e0 (n + u + R) = Ok n ->
    fits fs e (e0 ++ [(nm, VList vcs)]) R cv u ->
    fits (FSeq nm l p item :: fs) e e0 R ((nm, VList vcs) :: cv) (n + u)
(* the items of a sequence: each item is followed by the encodings of the later items and consumes >= 1 octet *)
with fits_items : list field -> list val -> list val -> nat -> Prop :=
| fi_nil item : fits_items item [] [] 0
| fi_cons item d dcv ui vs vcs us :
    fits item d [] us dcv ui -> NoDup (keys dcv) -> (1 <= ui)%nat ->
    fits_items item vs vcs us ->
    fits_items item (VDict d :: vs) (VDict dcv :: vcs) (ui + us).

Scheme fits_min := Minimality for fits Sort Prop
  with fits_items_min := Minimality for fits_items Sort Prop.
Combined Scheme fits_mutind from fits_min, fits_items_min.

Lemma fresh_of_nodup cv : NoDup (keys cv) -> fresh [] cv.
Proof. intros H. split; [exact H|reflexivity]. Qed.

(* what fits promises: the encoding b exists and has u octets; b followed by R more octets decodes to cv; and the
   dict the decoder returns (whatever else it holds) encodes as e does *)
Definition fits_sound_for (fs:list field) (e e0:env) (R:nat) (cv:env) (u:nat) : Prop :=
  exists b, length b = u /\ egood fs e b /\
    (fresh e0 cv -> (forall rest, length rest = R -> dgood fs e0 (b ++ rest) cv (length b)) /\
                    (forall ext k, enc k fs ((e0 ++ cv) ++ ext) = enc k fs e)).
Definition items_sound_for (item:list field) (vs vcs:list val) (n:nat) : Prop :=
  exists b, length b = n /\ (forall k, (lsize item < k)%nat -> enc_items (enc k item) vs = Ok b) /\ ditems item b vcs /\
    forall k, enc_items (enc k item) vcs = enc_items (enc k item) vs.

Lemma enc_field_eq rec f e E : get_pres (fpres f) E = get_pres (fpres f) e -> enc_payload rec f E = enc_payload rec f e ->
  enc_field rec f E = enc_field rec f e.
Proof. intros H1 H2. unfold enc_field. rewrite H1, H2. reflexivity. Qed.

Lemma enc_cons_eq f fs e E : (forall k, enc_field (enc k) f E = enc_field (enc k) f e) -> (forall k, enc k fs E = enc k fs e) ->
  forall k, enc k (f :: fs) E = enc k (f :: fs) e.
Proof. intros H1 H2 [|k]; [reflexivity|]. cbn [enc]. rewrite H1, H2. reflexivity. Qed.

Theorem fits_sound :
  (forall fs e e0 R cv u, fits fs e e0 R cv u -> fits_sound_for fs e e0 R cv u) /\
  (forall item vs vcs n, fits_items item vs vcs n -> items_sound_for item vs vcs n).
Proof.
  apply fits_mutind; unfold fits_sound_for, items_sound_for.
  - intros e e0 R. exists []. split; [reflexivity|]. split; [apply egood_nil|]. intros _.
    split; [intros rest _; apply dgood_nil|intros ext [|k]; reflexivity].
  - (* absent *) intros f fs e e0 R cv u Hpe Hp0 _ [b [Hlen [He Hd]]]. exists b. split; [exact Hlen|].
    split; [apply egood_absent; assumption|]. intros Hfr. destruct (Hd Hfr) as [Hdd Hc]. split.
    + intros rest HR. apply dgood_absent; [exact Hp0|apply Hdd, HR].
    + intros ext. apply enc_cons_eq; [intros k|apply Hc].
      unfold enc_field. rewrite Hpe, <- app_assoc, (get_pres_ext _ _ _ _ Hp0). reflexivity.
  - (* uint *) intros nm n p le sg off mult raw fs e e0 R cv u Hpe Hp0 Hn Hm Hl Hrange _ [b [<- [He Hd]]].
    pose proof (enc_int_ok n le sg raw Hn Hrange) as Hbs. cbv zeta in Hbs. set (bs := if le then _ else _) in Hbs.
    destruct (int_rt _ _ _ _ _ Hn Hbs) as [Hdi [Hlb _]].
    exists (bs ++ b). split; [rewrite app_length, Hlb; reflexivity|]. split; [exact (egood_uint _ _ _ _ _ _ _ _ _ _ _ _ Hpe Hn Hm Hl Hbs He)|].
    intros Hfr. destruct (fresh_cons _ _ _ _ Hfr) as [Hk Hfr']. destruct (Hd Hfr') as [Hdd Hc]. split.
    + intros rest HR. rewrite <- app_assoc, app_length. apply (dgood_step _ _ _ _ _ [_]); [exact Hp0| | |apply Hdd, HR].
      * cbn [get_len_f flen]. rewrite Hlb. apply get_len_fix, Hn.
      * intros k _. cbn [dec_payload]. rewrite Hdi, eset_fresh by exact Hk. reflexivity.
    + intros ext. rewrite snoc_app. apply enc_cons_eq; [intros k|apply Hc].
      apply enc_field_eq; cbn [fpres enc_payload]; [rewrite Hpe; apply pres_mid, Hp0|]. rewrite Hl, (lookup_mid _ _ _ _ _ Hk). reflexivity.
  - (* buf *) intros nm l p bb fs e e0 R cv u Hpe Hp0 Hl Hgl _ [b [<- [He Hd]]].
    exists (bb ++ b). split; [apply app_length|]. split; [exact (egood_buf _ _ _ _ _ _ _ _ _ Hpe Hl Hgl He)|].
    intros Hfr. destruct (fresh_cons _ _ _ _ Hfr) as [Hk Hfr']. destruct (Hd Hfr') as [Hdd Hc]. split.
    + intros rest <-. rewrite <- app_assoc, app_length. apply (dgood_step _ _ _ _ _ [_]); [exact Hp0| | |apply Hdd; reflexivity].
      * cbn [get_len_f flen]. rewrite !app_length, Nat.add_assoc. exact Hgl.
      * intros k _. cbn [dec_payload]. rewrite eset_fresh by exact Hk. reflexivity.
    + intros ext. rewrite snoc_app. apply enc_cons_eq; [intros k|apply Hc].
      apply enc_field_eq; cbn [fpres enc_payload]; [rewrite Hpe; apply pres_mid, Hp0|]. rewrite Hl, (lookup_mid _ _ _ _ _ Hk). reflexivity.
  - (* spare *) intros l p filler n fs e e0 R cv u Hpe Hp0 Hge Hg0 _ [b [<- [He Hd]]].
    exists (repeat filler n ++ b). split; [rewrite app_length, repeat_length; reflexivity|]. split; [exact (egood_spare _ _ _ _ _ _ _ Hpe Hge He)|].
    intros Hfr. destruct (Hd Hfr) as [Hdd Hc]. split.
    + intros rest <-. rewrite <- app_assoc, app_length.
      apply (dgood_step _ _ _ _ _ []); [exact Hp0| | |rewrite app_nil_r; apply Hdd; reflexivity].
      * cbn [get_len_f flen]. rewrite !app_length, repeat_length, Nat.add_assoc. exact Hg0.
      * intros k _. cbn [dec_payload]. rewrite app_nil_r. reflexivity.
    + intros ext. apply enc_cons_eq; [intros k|apply Hc]. rewrite <- app_assoc.
      apply enc_field_eq; cbn [fpres enc_payload]; [rewrite Hpe; apply get_pres_ext, Hp0|]. rewrite Hge, (spare_len_canon _ _ _ _ _ _ Hge Hg0). reflexivity.
  - (* bits *) intros l p lsb bfs bcv fs e e0 R cv u Hpe Hp0 Hwf Hbf _ [b [<- [He Hd]]].
    destruct (bits_blob l lsb bfs e bcv Hwf Hbf) as [blob [Hb1 [Hb2 Hb3]]].
    exists (to_be (bits_len l bfs) blob ++ b). split; [rewrite app_length, to_be_length; reflexivity|].
    split; [exact (egood_bits _ _ _ _ _ _ _ _ Hpe (proj1 Hwf) Hb1 Hb2 He)|].
    intros Hfr. destruct (fresh_app _ _ _ Hfr) as [Hfb Hfr']. destruct (Hd Hfr') as [Hdd Hc]. split.
    + intros rest <-. rewrite <- app_assoc, app_length. apply dgood_step; [exact Hp0| | |apply Hdd; reflexivity].
      * cbn [get_len_f]. rewrite to_be_length. reflexivity.
      * intros k _. cbn [dec_payload]. rewrite from_to_be by exact Hb2. apply Hb3, Hfb.
    + intros ext. rewrite (app_assoc e0). apply enc_cons_eq; [intros k|apply Hc].
      apply enc_field_eq; cbn [fpres enc_payload]; [rewrite Hpe; apply pres_mid, Hp0|]. unfold bits_layout.
      rewrite (enc_bits_agree _ _ _ _ Hbf); [reflexivity|]. intros x v Hin. rewrite <- !app_assoc. apply lookup_fresh_mid; assumption.
  - (* nested envelope *)
    intros nm l p chk body d dcv n fs e e0 R cv u Hpe Hp0 Hl _ [bd [<- [Heb Hdb]]] Hnd Hgl _ [b [<- [He Hd]]].
    destruct (Hdb (fresh_of_nodup _ Hnd)) as [Hdb1 Hcb]. specialize (Hdb1 [] eq_refl). specialize (Hcb []).
    cbn [app] in Hcb. rewrite app_nil_r in Hdb1, Hcb.
    exists (bd ++ b). split; [apply app_length|]. split; [exact (egood_env _ _ _ chk _ _ _ _ _ _ _ _ Hpe Hl Heb Hgl He)|].
    intros Hfr. destruct (fresh_cons _ _ _ _ Hfr) as [Hk Hfr']. destruct (Hd Hfr') as [Hdd Hc]. split.
    + intros rest <-. rewrite <- app_assoc, app_length. apply (dgood_step _ _ _ _ _ [_]); [exact Hp0| | |apply Hdd; reflexivity].
      * cbn [get_len_f flen]. rewrite !app_length, Nat.add_assoc. exact Hgl.
      * intros k Hk'. rewrite fsize_env in Hk'. cbn [dec_payload]. rewrite Hdb1 by lia. cbn [wrapD bind fst snd app].
        rewrite Nat.eqb_refl, andb_false_r, eset_fresh by exact Hk. reflexivity.
    + intros ext. rewrite snoc_app. apply enc_cons_eq; [intros k|apply Hc].
      apply enc_field_eq; cbn [fpres enc_payload]; [rewrite Hpe; apply pres_mid, Hp0|]. rewrite Hl, (lookup_mid _ _ _ _ _ Hk), Hcb. reflexivity.
  - (* sequence *) intros nm l p item vs vcs n fs e e0 R cv u Hpe Hp0 Hl _ [bi [<- [Hei [Hdi Hci]]]] Hgl _ [b [<- [He Hd]]].
    exists (bi ++ b). split; [apply app_length|]. split; [exact (egood_seq _ _ _ _ _ _ _ _ _ _ _ Hpe Hl Hei Hgl He)|].
    intros Hfr. destruct (fresh_cons _ _ _ _ Hfr) as [Hk Hfr']. destruct (Hd Hfr') as [Hdd Hc]. split.
    + intros rest <-. rewrite <- app_assoc, app_length. apply (dgood_step _ _ _ _ _ [_]); [exact Hp0| | |apply Hdd; reflexivity].
      * cbn [get_len_f flen]. rewrite !app_length, Nat.add_assoc. exact Hgl.
      * intros k Hk'. rewrite fsize_seq in Hk'. cbn [dec_payload]. rewrite (Hdi k) by lia. cbn [bind].
        rewrite eset_fresh by exact Hk. reflexivity.
    + intros ext. rewrite snoc_app. apply enc_cons_eq; [intros k|apply Hc].
      apply enc_field_eq; cbn [fpres enc_payload]; [rewrite Hpe; apply pres_mid, Hp0|]. rewrite Hl, (lookup_mid _ _ _ _ _ Hk). apply Hci.
  - intros item. exists []. split; [reflexivity|]. split; [reflexivity|]. split; [apply ditems_nil|reflexivity].
  - (* one more item *) intros item d dcv ui vs vcs us _ [b1 [<- [He1 Hd1]]] Hnd Hui _ [bs [<- [Hes [Hds Hcs]]]].
    destruct (Hd1 (fresh_of_nodup _ Hnd)) as [Hdd Hc]. specialize (Hc []). cbn [app] in Hc. rewrite app_nil_r in Hc.
    exists (b1 ++ bs). split; [apply app_length|]. split; [|split].
    + intros k Hk. cbn [enc_items]. rewrite (He1 k Hk). cbn [wrapE bind]. rewrite (Hes k Hk). reflexivity.
    + apply ditems_cons; [apply Hdd; reflexivity|exact Hui|exact Hds].
    + intros k. cbn [enc_items]. rewrite Hc, Hcs. reflexivity.
Qed.

(* fitting values encode to u octets; those octets, followed by any R more, decode to cv (the tail check rejects
   them exactly when R > 0); and cv encodes to the same octets *)
Theorem fits_api fs e R cv u : fits fs e [] R cv u -> NoDup (keys cv) -> proto_ok fs = true ->
  exists b, length b = u /\ encode fs e = Ok b /\ encode fs cv = Ok b /\
    forall chk rest, length rest = R ->
    decode chk fs (b ++ rest) = (if chk && negb (Nat.eqb (length (b ++ rest)) (length b)) then DecodeErr 0 else Ok (cv, length b)).
Proof.
  intros Hf Hnd Hpo. destruct (proj1 fits_sound _ _ _ _ _ _ Hf) as [b [Hl [He Hd]]]. exists b.
  destruct (Hd (fresh_of_nodup _ Hnd)) as [Hdd Hc]. specialize (Hc []). cbn [app] in Hc. rewrite app_nil_r in Hc.
  pose proof (encode_egood fs e b Hpo He) as Henc. split; [exact Hl|]. split; [exact Henc|].
  split; [unfold encode in *; rewrite Hc; exact Henc|].
  intros chk rest HR. apply decode_dgood; [exact Hpo|]. apply Hdd, HR.
Qed.

Definition fits_top (fs:list field) (e cv:env) (u:nat) : Prop := fits fs e [] 0 cv u /\ NoDup (keys cv).

Lemma encode_proto_ok fs e b : encode fs e = Ok b -> proto_ok fs = true.
Proof. unfold encode. destruct (proto_ok fs); [reflexivity|discriminate]. Qed.

(* decode (encode v) = v, consuming exactly |encoding| octets, with and without the tail check *)
Lemma enc_dec_top fs e cv u b chk : fits_top fs e cv u -> encode fs e = Ok b ->
  decode chk fs b = Ok (cv, length b) /\ length b = u.
Proof.
  intros [Hf Hnd] Henc. destruct (fits_api _ _ _ _ _ Hf Hnd (encode_proto_ok _ _ _ Henc)) as [b0 [Hl [He [_ Hd]]]].
  rewrite He in Henc. injection Henc as <-. specialize (Hd chk [] eq_refl).
  rewrite app_nil_r, Nat.eqb_refl, andb_false_r in Hd. split; [exact Hd|exact Hl].
Qed.

(* over-wide bit values, ignored user values of fixed fields, extra keys and key order of e make no difference *)
Lemma reencode_canonical fs e cv u b : fits_top fs e cv u -> encode fs e = Ok b ->
  decode true fs b = Ok (cv, length b) /\ encode fs cv = Ok b.
Proof.
  intros Hwf Henc. split; [apply (enc_dec_top fs e cv u b true Hwf Henc)|]. destruct Hwf as [Hfit Hnd].
  destruct (fits_api _ _ _ _ _ Hfit Hnd (encode_proto_ok _ _ _ Henc)) as [b0 [_ [He [Hc _]]]]. congruence.
Qed.

(* an always-present bit-field set reads its octets as one integer *)
Lemma dec_field_bits recd recs l lsb bfs e data : (bits_len l bfs <= length data)%nat ->
  dec_field recd recs (FBits l PAlways lsb bfs) e data =
  (e' <- dec_bits (bits_layout l lsb bfs) (from_be (firstn (bits_len l bfs) data)) e ;; Ok (e', bits_len l bfs)).
Proof.
  intros H. unfold dec_field. cbn [fpres get_pres bind negb get_len_f dec_payload]. rewrite (proj2 (Nat.ltb_ge _ _) H). reflexivity.
Qed.
