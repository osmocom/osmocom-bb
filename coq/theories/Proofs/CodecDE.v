(* C16, direction decode -> encode: for a well-formed definition (wfb) every successfully decoded message fits
   (so the encode -> decode theorem applies to it), re-encodes successfully to exactly the number of octets that
   were consumed, and the re-encoding decodes to the same message; if the definition has no spare octets, spare
   bit-fields or padding bits, the re-encoding is the consumed input itself. *)
From Coq Require Import ZArith List Bool Lia.
From OBB Require Import Base.Lists Model.Codec Proofs.CodecInt Proofs.CodecBits Proofs.CodecRT.
Import ListNotations.
Open Scope Z_scope.

Lemma nodupb_sound l : nodupb l = true -> NoDup l.
Proof.
  induction l as [|x r IH]; cbn [nodupb]; intros H; [constructor|].
  apply andb_true_iff in H as [H1 H2]. constructor; [|auto].
  intros Hin. apply negb_true_iff in H1. assert (existsb (Nat.eqb x) r = true); [|congruence].
  apply existsb_exists. exists x. split; [exact Hin|apply Nat.eqb_refl].
Qed.

Lemma fresh_check e0 cv :
  nodupb (keys cv) && forallb (fun k => match lookup k e0 with None => true | Some _ => false end) (keys cv) = true -> fresh e0 cv.
Proof.
  intros H. apply andb_true_iff in H as [Hnd Hl]. split; [apply nodupb_sound, Hnd|].
  intros k Hk. pose proof (proj1 (forallb_forall _ _) Hl k Hk) as H. cbv beta in H. destruct (lookup k e0); [discriminate|reflexivity].
Qed.

Lemma bytes_ok_firstn n l : bytes_ok l -> bytes_ok (firstn n l).
Proof. intros H. rewrite <- (firstn_skipn n l) in H. apply Forall_app in H. apply H. Qed.
Lemma bytes_ok_skipn n l : bytes_ok l -> bytes_ok (skipn n l).
Proof. intros H. rewrite <- (firstn_skipn n l) in H. apply Forall_app in H. apply H. Qed.

Lemma get_len_ext l e0 x L n : get_len l e0 L = Ok n -> get_len l (e0 ++ x) L = Ok n.
Proof. destruct l as [[|m]| | |]; cbn [get_len]; auto. apply tab_get_ext. Qed.
Lemma spare_len_indep l e0 x L L' n : spare_len_ok l = true -> get_len l e0 L = Ok n -> get_len l (e0 ++ x) L' = Ok n.
Proof. destruct l as [[|m]| | |]; cbn [spare_len_ok get_len]; try discriminate; auto. intros _. apply tab_get_ext. Qed.

Lemma dec_cons_inv k f fs e data e1 n : dec (S k) (f :: fs) e data = Ok (e1, n) ->
  exists e' n1 n2, dec_field (dec k) (dec_seq k) f e data = Ok (e', n1) /\
    dec k fs e' (skipn n1 data) = Ok (e1, n2) /\ n = (n1 + n2)%nat.
Proof.
  cbn [dec]. intros H. apply bind_ok in H as [[e' n1] [H1 H]]. apply bind_ok in H as [[e2 n2] [H2 H]].
  cbn [fst snd] in *. injection H as <- <-. eauto 8.
Qed.

Lemma dec_field_inv recd recs f e data e' n1 : dec_field recd recs f e data = Ok (e', n1) ->
  (get_pres (fpres f) e = Ok false /\ e' = e /\ n1 = O) \/
  (get_pres (fpres f) e = Ok true /\ get_len_f f e (length data) = Ok n1 /\ (n1 <= length data)%nat /\
   dec_payload recd recs f e (firstn n1 data) = Ok e').
Proof.
  unfold dec_field. intros H. apply bind_ok in H as [pr [Hp H]]. destruct pr; cbn [negb] in H.
  - right. apply bind_ok in H as [n [Hn H]]. destruct (Nat.ltb (length data) n) eqn:El; [discriminate|].
    apply Nat.ltb_ge in El. apply bind_ok in H as [e2 [Hd H]]. injection H as <- <-. auto.
  - left. injection H as <- <-. auto.
Qed.

Lemma dec_used_le : forall fd fs e data e1 n, dec fd fs e data = Ok (e1, n) -> (n <= length data)%nat.
Proof.
  induction fd as [|k IH]; intros fs e data e1 n H; [discriminate|]. destruct fs as [|f fs'].
  - cbn [dec] in H. injection H as <- <-. lia.
  - apply dec_cons_inv in H as [e' [n1 [n2 [Hf [Ht ->]]]]]. apply IH in Ht. rewrite skipn_length in Ht.
    apply dec_field_inv in Hf as [[_ [_ ->]]|[_ [_ [Hn1 _]]]]; lia.
Qed.

Lemma decode_inv chk fs data v n : decode chk fs data = Ok (v, n) ->
  proto_ok fs = true /\ dec (dec_fuel fs data) fs [] data = Ok (v, n) /\ chk && negb (Nat.eqb (length data) n) = false.
Proof.
  unfold decode. destruct (proto_ok fs); [|discriminate]. intros H. apply bind_ok in H as [[v0 n0] [Hd H]]. apply wrapD_ok in Hd.
  cbn [fst snd] in H. destruct (chk && negb (Nat.eqb (length data) n0)) eqn:E; [discriminate|]. injection H as <- <-. auto.
Qed.

Lemma decode_true_len fs data v n : decode true fs data = Ok (v, n) -> n = length data.
Proof. intros H. apply decode_inv in H as [_ [_ E]]. apply negb_false_iff, Nat.eqb_eq in E. auto. Qed.

Lemma wfb_inv fs : wfb fs = true -> NoDup (lnames fs) /\ forallb wfb_f fs = true.
Proof. unfold wfb. intros H. apply andb_true_iff in H as [H1 H2]. split; [apply nodupb_sound, H1|exact H2]. Qed.

(* in a well-formed definition (distinct names: wfb) a name belongs to one field *)
Lemma names_uniq fs f g nm : NoDup (lnames fs) -> In f fs -> In g fs -> In nm (fnames f) -> In nm (fnames g) -> f = g.
Proof.
  induction fs as [|h r IH]; intros Hnd Hf Hg Nf Ng; [destruct Hf|]. unfold lnames in *. cbn [flat_map] in Hnd.
  destruct (NoDup_app_inv _ _ Hnd) as [_ [Hr Hd]]. destruct Hf as [<-|Hf], Hg as [<-|Hg].
  - reflexivity.
  - exfalso. apply (Hd nm Nf), in_flat_map. eauto.
  - exfalso. apply (Hd nm Ng), in_flat_map. eauto.
  - apply IH; assumption.
Qed.


(* what decoding fs from e0 to (e1, n) establishes: e1 extends e0 by fresh names of fs, the message fits, and for a
   definition without spares the consumed octets are its encoding *)
Definition dec_fits (fs:list field) (e0:env) (data:list Z) (e1:env) (n:nat) : Prop :=
  exists cv, e1 = e0 ++ cv /\ incl (keys cv) (lnames fs) /\ NoDup (keys cv) /\
    forall ext, fits fs (e1 ++ ext) e0 (length data - n) cv n /\
                (spare_free fs = true -> egood fs (e1 ++ ext) (firstn n data)).
Definition dec_fits_for (fd:nat) : Prop := forall fs e0 data e1 n,
  dec fd fs e0 data = Ok (e1, n) -> NoDup (lnames fs) -> forallb wfb_f fs = true -> bytes_ok data -> disj e0 (lnames fs) ->
  dec_fits fs e0 data e1 n.
Definition seq_fits_for (fd:nat) : Prop := forall item data vcs,
  dec_seq fd item data = Ok vcs -> NoDup (lnames item) -> forallb wfb_f item = true -> bytes_ok data ->
  fits_items item vcs vcs (length data) /\
  (spare_free item = true -> forall k, (lsize item < k)%nat -> enc_items (enc k item) vcs = Ok data).

(* what each kind of field has to show: the field, having stored cvf from its n1 octets, goes in front of what holds
   for the rest; E is the dict the message ends up in *)
Definition puts_in_front (f:field) (fs':list field) (e0 cvf:env) (data:list Z) (n1 n2:nat) : Prop :=
  forall cv' ext, let E := ((e0 ++ cvf) ++ cv') ++ ext in
    (fits fs' E (e0 ++ cvf) (length data - (n1 + n2)) cv' n2 ->
     fits (f :: fs') E e0 (length data - (n1 + n2)) (cvf ++ cv') (n1 + n2)) /\
    (spare_free_f f = true -> egood fs' E (firstn n2 (skipn n1 data)) ->
     egood (f :: fs') E (firstn n1 data ++ firstn n2 (skipn n1 data))).

(* the names of the field and of the rest are kept apart once, here *)
Lemma dec_fits_cons f fs' e0 cvf data e1 n1 n2 :
  disj e0 (lnames fs') -> (forall x, In x (fnames f) -> ~ In x (lnames fs')) -> incl (keys cvf) (fnames f) -> NoDup (keys cvf) ->
  (disj (e0 ++ cvf) (lnames fs') -> dec_fits fs' (e0 ++ cvf) (skipn n1 data) e1 n2) ->
  puts_in_front f fs' e0 cvf data n1 n2 -> dec_fits (f :: fs') e0 data e1 (n1 + n2).
Proof.
  intros Hdis Hsep Hinc Hndc Hrest Hstep. destruct Hrest as [cv' [-> [Hinc' [Hnd' Hboth]]]].
  { apply disj_app; [exact Hdis|]. intros x Hx Hxc. exact (Hsep x (Hinc x Hxc) Hx). }
  exists (cvf ++ cv'). split; [symmetry; apply app_assoc|]. rewrite keys_app. split; [|split].
  - intros x Hx. apply in_app_or in Hx as [Hx|Hx]; apply in_or_app; [left; auto|right; auto].
  - apply NoDup_app_intro; [exact Hndc|exact Hnd'|]. intros x Hx Hx'. exact (Hsep x (Hinc x Hx) (Hinc' x Hx')).
  - intros ext. destruct (Hboth ext) as [Hfit Hex]. rewrite skipn_length, <- Nat.sub_add_distr in Hfit.
    destruct (Hstep cv' ext) as [S1 S2]. split; [exact (S1 Hfit)|].
    intros Hsf. unfold spare_free in Hsf. cbn [forallb] in Hsf. apply andb_true_iff in Hsf as [Hsff Hsfr].
    rewrite <- firstn_split. exact (S2 Hsff (Hex Hsfr)).
Qed.

Lemma dec_fits_mut : forall fd, dec_fits_for fd /\ seq_fits_for fd.
Proof.
  induction fd as [|k [IHd IHs]]; [split; [intros fs e0 data e1 n H|intros item data vcs H]; discriminate|]. split.
  - intros fs e0 data e1 n Hdec Hnd Hwf Hb Hdis. pose proof (dec_used_le _ _ _ _ _ _ Hdec) as Hle. destruct fs as [|f fs'].
    { cbn [dec] in Hdec. injection Hdec as <- <-. exists []. rewrite app_nil_r. split; [reflexivity|]. split; [intros x []|].
      split; [constructor|]. intros ext. split; [constructor|intros _; apply egood_nil]. }
    apply dec_cons_inv in Hdec as [e' [n1 [n2 [Hf [Ht ->]]]]].
    unfold lnames in Hnd, Hdis. cbn [flat_map] in Hnd, Hdis. destruct (NoDup_app_inv _ _ Hnd) as [Hndf [Hndr Hsep]].
    cbn [forallb] in Hwf. apply andb_true_iff in Hwf as [Hwff Hwfr].
    assert (Hcons : forall cvf, e' = e0 ++ cvf -> incl (keys cvf) (fnames f) -> NoDup (keys cvf) ->
      puts_in_front f fs' e0 cvf data n1 n2 -> dec_fits (f :: fs') e0 data e1 (n1 + n2)).
    { intros cvf -> Hinc Hndc. apply dec_fits_cons; [intros x Hx; apply Hdis, in_or_app; right; exact Hx|exact Hsep|exact Hinc|exact Hndc|].
      intros Hd. exact (IHd fs' _ _ _ _ Ht Hndr Hwfr (bytes_ok_skipn _ _ Hb) Hd). }
    apply dec_field_inv in Hf as [[Hp [-> ->]]|[Hp [Hgl [Hn1 Hpay]]]].
    { (* absent *) apply (Hcons []); [symmetry; apply app_nil_r|intros x []|constructor|].
      intros cv' ext E. split.
      - intros Hfit. rewrite app_nil_r in Hfit. apply fits_absent; [apply pres_mid, Hp|exact Hp|exact Hfit].
      - intros _ Heg. apply egood_absent; [apply pres_mid, Hp|exact Heg]. }
    (* present: d is the chunk of the field *)
    assert (HR : (n1 + n2 + (length data - (n1 + n2)))%nat = length data) by (clear - Hle; lia).
    pose proof (bytes_ok_firstn n1 _ Hb) as Hbd. pose proof (firstn_length_le data Hn1) as Hld. set (d := firstn n1 data) in *.
    destruct f as [nm l p le sg off mult|nm l p|l p filler|l p lsb bfs|nm l p chk body|nm l p item];
      cbn [fpres] in Hp; cbn [dec_payload] in Hpay; cbn [get_len_f flen] in Hgl; cbn [fnames] in Hdis, Hndf.
    + (* uint *)
      cbn [wfb_f] in Hwff. apply andb_true_iff in Hwff as [Hl Hm]. destruct l as [[|m]| | |]; try discriminate.
      apply negb_true_iff, Z.eqb_neq in Hm. cbn [get_len] in Hgl. injection Hgl as <-.
      assert (Hk : lookup nm e0 = None) by (apply Hdis; left; reflexivity).
      rewrite (eset_fresh _ _ _ Hk) in Hpay. injection Hpay as <-.
      apply (Hcons [_] eq_refl); [intros x [<-|[]]; left; reflexivity|constructor; [intros []|constructor]|].
      intros cv' ext E. fold d. assert (HlE : lookup nm E = Some (VInt (dec_int le sg d * mult + off))) by (apply lookup_mid, Hk). split.
      * intros Hfit. apply fits_uint; [apply pres_mid, Hp|exact Hp|lia|exact Hm|exact HlE| |exact Hfit].
        rewrite <- Hld. apply dec_int_range; [exact Hbd|lia].
      * intros _ Heg. apply (egood_uint _ _ _ _ _ _ _ (dec_int le sg d)); [apply pres_mid, Hp|lia|exact Hm|exact HlE| |exact Heg].
        rewrite <- Hld. apply dec_enc_int; [exact Hbd|lia].
    + (* buf *)
      assert (Hk : lookup nm e0 = None) by (apply Hdis; left; reflexivity).
      rewrite (eset_fresh _ _ _ Hk) in Hpay. injection Hpay as <-.
      apply (Hcons [_] eq_refl); [intros x [<-|[]]; left; reflexivity|constructor; [intros []|constructor]|].
      intros cv' ext E. fold d. assert (HlE : lookup nm E = Some (VBytes d)) by (apply lookup_mid, Hk). split.
      * intros Hfit. rewrite <- Hld. apply fits_buf; [apply pres_mid, Hp|exact Hp|exact HlE| |rewrite Hld; exact Hfit].
        rewrite Hld, HR. exact Hgl.
      * intros _ Heg. rewrite <- Hld in Hgl. exact (egood_buf _ _ _ _ _ _ _ _ _ (pres_mid _ _ _ _ _ _ Hp) HlE Hgl Heg).
    + (* spare *)
      injection Hpay as <-. cbn [wfb_f] in Hwff. apply andb_true_iff in Hwff as [Hwff _]. apply andb_true_iff in Hwff as [Hsl _].
      apply (Hcons []); [symmetry; apply app_nil_r|intros x []|constructor|].
      intros cv' ext E. fold d. split; [|discriminate].
      intros Hfit. rewrite app_nil_r in Hfit. apply fits_spare; [apply pres_mid, Hp|exact Hp| | |exact Hfit].
      * subst E. rewrite <- !app_assoc. eapply spare_len_indep; eauto.
      * rewrite HR. exact Hgl.
    + (* bits *)
      injection Hgl as <-. cbn [wfb_f] in Hwff. apply andb_true_iff in Hwff as [Hwff _]. apply andb_true_iff in Hwff as [Hw1 Hw2].
      apply Nat.leb_le in Hw1, Hw2. unfold bits_layout in Hpay.
      destruct (dec_bits_fit _ _ _ _ _ Hpay) as [bcv [He' [Hkeys Hboth]]].
      { intros x Hx. apply Hdis, in_or_app. left. apply (bf_names_order_in lsb bfs x), Hx. }
      { apply bf_names_order_nodup, Hndf. }
      assert (Hkn : NoDup (keys bcv)) by (rewrite Hkeys; apply bf_names_order_nodup, Hndf).
      apply (Hcons bcv He'); [intros x Hx; rewrite Hkeys in Hx; apply (bf_names_order_in lsb bfs x), Hx|exact Hkn|].
      intros cv' ext E. fold d. destruct (Hboth E) as [Hbf Hex].
      { intros x v Hin. subst E. rewrite <- !app_assoc, lookup_app.
        assert (Hx0 : lookup x e0 = None).
        { apply Hdis, in_or_app. left. apply (bf_names_order_in lsb bfs x). rewrite <- Hkeys. apply (in_map fst _ _ Hin). }
        rewrite Hx0, lookup_app, (lookup_in_nodup _ _ _ Hkn Hin). reflexivity. }
      split.
      * intros Hfit. apply fits_bits; [apply pres_mid, Hp|exact Hp|exact (conj Hw1 Hw2)|exact Hbf|exact Hfit].
      * intros Hsf Heg. destruct (spare_free_bits _ _ _ _ Hsf) as [Hnamed Htot].
        apply egood_step; [apply pres_mid, Hp| |right; symmetry; exact Hld|exact Heg].
        assert (Ht8 : Z.of_nat (bits_total (bits_order lsb bfs)) = 8 * Z.of_nat (bits_len l bfs))
          by (rewrite bits_total_order, Htot; clear; lia).
        intros j _. cbn [enc_payload]. apply (bits_reencode l lsb bfs E bcv); [exact (conj Hw1 Hw2)|exact Hbd|exact Hld|exact Hbf|].
        intros q Hq. apply Hex; [exact Hnamed|rewrite Ht8; apply Z.le_refl|rewrite Ht8, Z.sub_diag; exact Hq].
    + (* nested envelope *)
      cbn [wfb_f] in Hwff. apply andb_true_iff in Hwff as [Hwff Hwb]. apply andb_true_iff in Hwff as [-> Hnb].
      apply bind_ok in Hpay as [[dcv m] [Hbody Hpay]]. apply wrapD_ok in Hbody. cbn [fst snd andb] in Hpay.
      destruct (Nat.eqb_spec (length d) m) as [<-|_]; cbn [negb] in Hpay; [|discriminate].
      assert (Hk : lookup nm e0 = None) by (apply Hdis; left; reflexivity).
      rewrite (eset_fresh _ _ _ Hk) in Hpay. injection Hpay as <-.
      destruct (IHd body [] _ _ _ Hbody (nodupb_sound _ Hnb) Hwb Hbd (disj_nil _)) as [cvb [Hcvb [_ [Hndb Hbb]]]].
      cbn [app] in Hcvb. subst cvb. specialize (Hbb []). rewrite app_nil_r, Nat.sub_diag, firstn_all in Hbb. destruct Hbb as [Hfitb Hexb].
      apply (Hcons [_] eq_refl); [intros x [<-|[]]; left; reflexivity|constructor; [intros []|constructor]|].
      intros cv' ext E. fold d. assert (HlE : lookup nm E = Some (VDict dcv)) by (apply lookup_mid, Hk). split.
      * intros Hfit. rewrite <- Hld.
        apply (fits_envf nm l p true body dcv dcv); [apply pres_mid, Hp|exact Hp|exact HlE|exact Hfitb|exact Hndb| |rewrite Hld; exact Hfit].
        rewrite Hld, HR. exact Hgl.
      * intros Hsf Heg. rewrite <- Hld in Hgl. exact (egood_env _ _ _ true _ _ _ _ _ _ _ _ (pres_mid _ _ _ _ _ _ Hp) HlE (Hexb Hsf) Hgl Heg).
    + (* sequence *)
      cbn [wfb_f] in Hwff. apply andb_true_iff in Hwff as [Hni Hwi].
      apply bind_ok in Hpay as [vs [Hseq Hpay]].
      assert (Hk : lookup nm e0 = None) by (apply Hdis; left; reflexivity).
      rewrite (eset_fresh _ _ _ Hk) in Hpay. injection Hpay as <-.
      destruct (IHs item _ _ Hseq (nodupb_sound _ Hni) Hwi Hbd) as [Hfi Hexi].
      apply (Hcons [_] eq_refl); [intros x [<-|[]]; left; reflexivity|constructor; [intros []|constructor]|].
      intros cv' ext E. fold d. assert (HlE : lookup nm E = Some (VList vs)) by (apply lookup_mid, Hk). split.
      * intros Hfit. rewrite <- Hld.
        apply (fits_seqf nm l p item vs vs); [apply pres_mid, Hp|exact Hp|exact HlE|exact Hfi| |rewrite Hld; exact Hfit].
        rewrite Hld, HR. exact Hgl.
      * intros Hsf Heg. rewrite <- Hld in Hgl. exact (egood_seq _ _ _ _ _ _ _ _ _ _ _ (pres_mid _ _ _ _ _ _ Hp) HlE (Hexi Hsf) Hgl Heg).
  - (* dec_seq *)
    intros item data vcs Hseq Hnd Hwf Hb. cbn [dec_seq] in Hseq. destruct data as [|x xs].
    { injection Hseq as <-. split; [constructor|reflexivity]. }
    set (data := x :: xs) in *.
    apply bind_ok in Hseq as [[dcv used] [Hit Hseq]]. apply wrapD_ok in Hit. cbn [fst snd] in Hseq.
    destruct used as [|m]; [discriminate|]. apply bind_ok in Hseq as [vs [Hrest Hseq]]. injection Hseq as <-.
    pose proof (dec_used_le _ _ _ _ _ _ Hit) as Hu.
    destruct (IHd item [] _ _ _ Hit Hnd Hwf Hb (disj_nil _)) as [cvb [Hcvb [_ [Hndb Hbb]]]].
    cbn [app] in Hcvb. subst cvb. specialize (Hbb []). rewrite app_nil_r in Hbb. destruct Hbb as [Hfitb Hexb].
    destruct (IHs item _ _ Hrest Hnd Hwf (bytes_ok_skipn _ _ Hb)) as [Hfi Hexi]. rewrite skipn_length in Hfi. split.
    + replace (length data) with (S m + (length data - S m))%nat by lia. apply fi_cons; [exact Hfitb|exact Hndb|lia|exact Hfi].
    + intros Hsf j Hj. cbn [enc_items]. rewrite (Hexb Hsf j Hj). cbn [wrapE bind]. rewrite (Hexi Hsf j Hj). cbn [bind].
      rewrite firstn_skipn. reflexivity.
Qed.

Lemma decoded chk fs data v n : wfb fs = true -> bytes_ok data -> decode chk fs data = Ok (v, n) ->
  (n <= length data)%nat /\ NoDup (keys v) /\ fits fs v [] (length data - n) v n /\
  (spare_free fs = true -> egood fs v (firstn n data)).
Proof.
  intros Hwf Hb Hdec. apply decode_inv in Hdec as [_ [Hd _]]. destruct (wfb_inv _ Hwf) as [Hnd Hwff].
  destruct (proj1 (dec_fits_mut _) _ _ _ _ _ Hd Hnd Hwff Hb (disj_nil _)) as [cv [Hcv [_ [Hndc Hboth]]]].
  cbn [app] in Hcv. subst cv. specialize (Hboth []). rewrite app_nil_r in Hboth.
  split; [exact (dec_used_le _ _ _ _ _ _ Hd)|]. split; [exact Hndc|exact Hboth].
Qed.

Lemma dec_enc_top chk fs data v n : wfb fs = true -> bytes_ok data -> decode chk fs data = Ok (v, n) ->
  (n <= length data)%nat /\ fits fs v [] (length data - n) v n /\ NoDup (keys v) /\
  exists b', encode fs v = Ok b' /\ length b' = n /\ decode chk fs (b' ++ skipn n data) = Ok (v, n).
Proof.
  intros Hwf Hb Hdec. destruct (decoded _ _ _ _ _ Hwf Hb Hdec) as [Hn [Hnd [Hfit _]]]. apply decode_inv in Hdec as [Hpo [_ Etail]].
  split; [exact Hn|]. split; [exact Hfit|]. split; [exact Hnd|].
  destruct (fits_api _ _ _ _ _ Hfit Hnd Hpo) as [b' [Hlen [Hb' [_ Hdd]]]]. exists b'. split; [exact Hb'|]. split; [exact Hlen|].
  rewrite (Hdd chk (skipn n data)) by (rewrite skipn_length; reflexivity).
  replace (length (b' ++ skipn n data)) with (length data) by (rewrite app_length, skipn_length; lia).
  rewrite Hlen, Etail. reflexivity.
Qed.
