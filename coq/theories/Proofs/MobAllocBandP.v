(* Lemmas about Model/MobAllocBand.v (C20): the final loop of gsm48_rr_render_ma. *)
From Coq Require Import ZArith List Bool Lia ZifyBool.
From OBB Require Import Base.Bits Gen.MobAllocConst Gen.MobAllocSi4Const Model.MobAlloc Model.MobAllocSi4 Model.MobAllocCd Model.MobAllocBand Proofs.MobAllocP Proofs.MobAllocSi4P.
Import ListNotations.
Open Scope Z_scope.
Ltac Zify.zify_post_hook ::= Z.to_euclidean_division_equations.

(* ARFCN_FLAG_MASK = 0xf000: the channel number is the low 12 bits; ARFCN_PCS is bit 15 *)
Lemma arfcn2index_eq x : arfcn2index x =
  if Z.testbit x 15 && (512 <=? x mod 4096) && (x mod 4096 <=? 810) then (x mod 4096) mod 1024 - 512 + 1024 else (x mod 4096) mod 1024.
Proof. unfold arfcn2index, c_ARFCN_FLAG_MASK, c_ARFCN_PCS. change (Z.land (Z.lnot 61440) 65535) with (Z.ones 12). change 1023 with (Z.ones 10).
  rewrite !Z.land_ones by lia. change 32768 with (2 ^ 15). rewrite land_pow2 by lia. destruct (Z.testbit x 15); reflexivity. Qed.

(* the conversion and the index for every decoded channel number, PCS cell and other cell: a < 2^15, so a | 0x8000 = a + 0x8000 *)
Lemma step_facts (pcs : bool) a : 0 <= a < 1024 ->
  (if (512 <=? a) && (a <=? 810) then Z.lor a (if pcs then c_ARFCN_PCS else 0) else a) = conv pcs a /\
  arfcn2index (conv pcs a) = bidx pcs a /\ Z.land (conv pcs a) 1023 = a /\
  Z.testbit (conv pcs a) 15 = pcs && ((512 <=? a) && (a <=? 810)) /\ 0 <= bidx pcs a < 1323.
Proof. intros Ha. assert (Hs : 0 <= a < 2 ^ 15) by (change (2 ^ 15) with 32768; lia).
  rewrite arfcn2index_eq. change 1023 with (Z.ones 10). rewrite Z.land_ones by lia. unfold conv, bidx, c_ARFCN_PCS. rewrite <- andb_assoc.
  destruct pcs, ((512 <=? a) && (a <=? 810)) eqn:E; cbn [andb]; rewrite ?Z.lor_0_r.
  1: change 32768 with (Z.shiftl 1 15); rewrite lor_shiftl by lia; change (Z.shiftl 1 15) with (2 ^ 15);
     rewrite Z.mul_1_l, testbit_add_pow2 by lia; change (2 ^ 15) with 32768.
  2-4: rewrite (lt_highclear a 15 15) by lia.
  all: cbn [andb]; repeat split; try lia.
  replace ((512 <=? (a + 32768) mod 4096) && ((a + 32768) mod 4096 <=? 810)) with true by lia. lia. Qed.

Lemma conv_lor (pcs : bool) a : 0 <= a < 1024 ->
  (if (512 <=? a) && (a <=? 810) then Z.lor a (if pcs then c_ARFCN_PCS else 0) else a) = conv pcs a.
Proof. intros Ha. apply (step_facts pcs a Ha). Qed.
Lemma arfcn2index_conv pcs a : 0 <= a < 1024 -> arfcn2index (conv pcs a) = bidx pcs a.
Proof. intros Ha. apply (step_facts pcs a Ha). Qed.
Lemma conv_low10 pcs a : 0 <= a < 1024 -> Z.land (conv pcs a) 1023 = a.
Proof. intros Ha. apply (step_facts pcs a Ha). Qed.
Lemma conv_bit15 pcs a : 0 <= a < 1024 -> Z.testbit (conv pcs a) 15 = pcs && ((512 <=? a) && (a <=? 810)).
Proof. intros Ha. apply (step_facts pcs a Ha). Qed.
Lemma bidx_range pcs a : 0 <= a < 1024 -> 0 <= bidx pcs a < 1323.
Proof. intros Ha. apply (step_facts pcs a Ha). Qed.

Lemma wr_app pre a x v : wr (pre ++ a :: x) (Zlength pre) v = Some (pre ++ v :: x).
Proof. unfold wr. pose proof (Zlength_nonneg pre). replace (Zlength pre <? 0) with false by lia. rewrite Zlength_correct, Nat2Z.id.
  induction pre as [|p pre IH]; [reflexivity|]. cbn [length app upd_nat]. rewrite IH by apply Zlength_nonneg. reflexivity. Qed.

Lemma band_loop_eq (pcs : bool) fm : Zlength fm = 166 -> forall todo pre post, Forall (fun a => 0 <= a < 1024) todo ->
  band_loop (if pcs then c_ARFCN_PCS else 0) fm (pre ++ todo ++ post) (length todo) (Zlength pre) =
    Some (fst (loop_spec fm pcs todo), pre ++ snd (loop_spec fm pcs todo) ++ post).
Proof. intros Hfm. induction todo as [|a r IH]; intros pre post Ht; [reflexivity|].
  apply Forall_cons_iff in Ht as [Ha Hr]. pose proof (bidx_range pcs a Ha) as Hb.
  cbn [length band_loop app]. rewrite rd_app_r0. change (rd (a :: r ++ post) 0) with (Some a). cbv iota zeta.
  rewrite conv_lor, wr_app, arfcn2index_conv by exact Ha. rewrite rd_ok by (rewrite Z.shiftr_div_pow2 by lia; change (2 ^ 3) with 8; lia).
  cbn [loop_spec]. unfold supported. rewrite Z.shiftr_div_pow2 by lia. change (2 ^ 3) with 8.
  rewrite <- (bit_test (zn fm (bidx pcs a / 8)) (bidx pcs a)) by lia.
  destruct (Z.land (zn fm (bidx pcs a / 8)) (Z.shiftl 1 (Z.land (bidx pcs a) 7)) =? 0); cbn [negb]; [reflexivity|].
  replace (pre ++ conv pcs a :: r ++ post) with ((pre ++ [conv pcs a]) ++ r ++ post) by (rewrite <- app_assoc; reflexivity).
  replace (Zlength pre + 1) with (Zlength (pre ++ [conv pcs a])) by (rewrite Zlength_app, Zlength_cons, Zlength_nil; lia).
  rewrite IH by exact Hr. cbn [fst snd]. rewrite <- app_assoc. reflexivity. Qed.

Lemma loop_rc fm pcs todo : fst (loop_spec fm pcs todo) = if forallb (supported fm pcs) todo then 0 else 8.
Proof. induction todo as [|a r IH]; [reflexivity|]. cbn [loop_spec forallb]. destruct (supported fm pcs a); cbn [fst andb]; [exact IH|reflexivity]. Qed.

Lemma loop_all fm pcs todo : forallb (supported fm pcs) todo = true -> snd (loop_spec fm pcs todo) = map (conv pcs) todo.
Proof. induction todo as [|a r IH]; [reflexivity|]. cbn [loop_spec forallb map]. destruct (supported fm pcs a); cbn [andb snd]; [|discriminate].
  intros H. rewrite IH by exact H. reflexivity. Qed.

Lemma loop_numbers fm pcs todo : Forall (fun a => 0 <= a < 1024) todo ->
  map (fun x => Z.land x 1023) (snd (loop_spec fm pcs todo)) = todo.
Proof. induction 1 as [|a r Ha Hr IH]; [reflexivity|]. pose proof (conv_low10 pcs a Ha) as E3. cbn [loop_spec].
  destruct (supported fm pcs a); cbn [snd map]; rewrite E3; f_equal; [exact IH|].
  apply map_id_in. intros x Hx. rewrite Forall_forall in Hr. specialize (Hr x Hx). change 1023 with (Z.ones 10). rewrite Z.land_ones by lia.
  change (2 ^ 10) with 1024. lia. Qed.

Lemma render_full_loop pcs fm lv cdlv other freq ma ma_len fr sel rest :
  Zlength fm = 166 -> Forall (fun a => 0 <= a < 1024) sel ->
  render_ma_cd lv cdlv other freq ma ma_len = Ok 0 (mkst fr (sel ++ rest) (Zlength sel)) ->
  render_full pcs fm lv cdlv other freq ma ma_len =
    Ok (if forallb (supported fm pcs) sel then 0 else 8) (mkst fr (snd (loop_spec fm pcs sel) ++ rest) (Zlength sel)).
Proof. intros Hfm Hs E. unfold render_full. rewrite E. change (negb (0 =? 0)) with false. cbv iota. cbn [s_hop s_hlen s_freq].
  rewrite Zlength_correct, Nat2Z.id. pose proof (band_loop_eq pcs fm Hfm sel [] rest Hs) as B. cbn [app] in B. rewrite Zlength_nil in B.
  rewrite B, loop_rc. reflexivity. Qed.

Lemma render_full_pass pcs fm lv cdlv other freq ma ma_len rc s : rc <> 0 ->
  render_ma_cd lv cdlv other freq ma ma_len = Ok rc s -> render_full pcs fm lv cdlv other freq ma ma_len = Ok rc s.
Proof. intros Hrc E. unfold render_full. rewrite E. replace (rc =? 0) with false by lia. reflexivity. Qed.

(* non-vacuity: a PCS cell with the boundary channels 512, 810, 811 in its allocation; every band index supported except PCS 810 in the second case *)
Definition fm_all : list Z := repeat 255 166.
Example ex_band_pcs : match render_full true fm_all [1; 7; 0; 0; 0; 0; 0; 0; 0] (repeat 0 17) [] (tbl [512; 810; 811] 0) (repeat 7 64) 0 with
                      | Ok rc s => rc :: s_hlen s :: firstn 4 (s_hop s) | OOB => [-998] end = [0; 3; 33280; 33578; 811; 7].
Proof. rewrite tbl_upfrom. vm_compute. reflexivity. Qed.
Example ex_band_dcs : match render_full false fm_all [1; 7; 0; 0; 0; 0; 0; 0; 0] (repeat 0 17) [] (tbl [512; 810; 811] 0) (repeat 7 64) 0 with
                      | Ok rc s => rc :: s_hlen s :: firstn 4 (s_hop s) | OOB => [-998] end = [0; 3; 512; 810; 811; 7].
Proof. rewrite tbl_upfrom. vm_compute. reflexivity. Qed.
(* band index of PCS 810 = 1322 = bit 2 of freq_map[165] cleared: refused with cause 8 *)
Example ex_band_refused : match render_full true (repeat 255 165 ++ [251]) [1; 7; 0; 0; 0; 0; 0; 0; 0] (repeat 0 17) [] (tbl [512; 810; 811] 0) (repeat 7 64) 0 with
                      | Ok rc s => rc :: s_hlen s :: firstn 4 (s_hop s) | OOB => [-998] end = [8; 3; 33280; 33578; 811; 7].
Proof. rewrite tbl_upfrom. vm_compute. reflexivity. Qed.
Ltac Zify.zify_post_hook ::= idtac.
