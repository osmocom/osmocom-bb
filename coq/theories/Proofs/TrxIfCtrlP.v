(* trxcon TRXC response parser (trx_ctrl_read_cb) and command printers: safety conditions, the defects, acceptance of well-formed replies (C05, C14);
   at the end the PCS branch of gsm_arfcn2freq10 against its table *)
From Coq Require Import ZArith List Bool Lia ZifyBool.
From OBB Require Import Base.Lists Base.Range Gen.TrxIfConst Model.Trxd Model.TrxIf Proofs.TrxdBase Proofs.TrxIfP.
Import ListNotations.
Open Scope Z_scope.
Ltac Zify.zify_post_hook ::= Z.to_euclidean_division_equations.

Definition no_nul (a : list Z) : Prop := Forall (fun c => c <> 0) a.
Definition verb_chars (v : list Z) : Prop := Forall (fun c => c <> 0 /\ c <> 32) v.

Lemma verb_chars_no_nul v : verb_chars v -> no_nul v.
Proof. apply Forall_impl. intros c H. apply H. Qed.
Lemma no_nul_RSP : no_nul s_RSP.
Proof. repeat constructor; discriminate. Qed.
Lemma no_nul_SP : no_nul [SP].
Proof. repeat constructor; discriminate. Qed.

Lemma cstr_app0 l : cstr (l ++ [0]) = Some (cstr0 l).
Proof.
  induction l as [|x l IH]; [reflexivity|]. cbn [app cstr cstr0]. destruct (x =? 0); [reflexivity|]. rewrite IH. reflexivity.
Qed.
Lemma cstr0_app a b : no_nul a -> cstr0 (a ++ b) = a ++ cstr0 b.
Proof.
  induction 1 as [|x a Hx _ IH]; [reflexivity|]. cbn [app cstr0]. destruct (x =? 0) eqn:E; [lia|]. rewrite IH. reflexivity.
Qed.
Lemma strncmp_prefix v ra rb : strncmp_eq (v ++ ra) (v ++ rb) (length v) = true.
Proof. induction v as [|x v IH]; [reflexivity|]. cbn [app length strncmp_eq]. rewrite Z.eqb_refl, IH. reflexivity. Qed.
Lemma find_sp_app v r : verb_chars v -> find_sp (v ++ SP :: r) = Some (length v).
Proof.
  induction 1 as [|x v Hx _ IH]; [reflexivity|]. cbn [app find_sp length]. unfold SP in *. destruct (x =? 32) eqn:E; [lia|]. rewrite IH. reflexivity.
Qed.
Lemma skipn_field {A} (a : list A) x b : skipn (length a + 1) (a ++ x :: b) = b.
Proof. apply (skipn_app_plus a (x :: b) 1). Qed.
Lemma prefix_split {A} (v l : list A) : firstn (length v) l = v -> l = v ++ skipn (length v) l.
Proof. intros H. rewrite <- H at 1. symmetry. apply firstn_skipn. Qed.

Lemma scan_d_of_num s neg v rest : scan_num s = Some (neg, v, rest) -> exists x, scan_d s = Some (x, rest).
Proof. intros H. unfold scan_d. rewrite H. eauto. Qed.
Lemma scan_u_of_num s neg v rest : scan_num s = Some (neg, v, rest) -> exists x, scan_u s = Some (x, rest).
Proof. intros H. unfold scan_u. rewrite H. eauto. Qed.

(* what trx_ctrl_read_cb does once the verb has matched and a status has been read: the tail of c_ctrl_rsp, word for word *)
Definition dispatch (after cmd4 : list Z) (st : Z) : ctrl_res :=
  if strncmp_eq cmd4 s_POWERON 7 then CrAccepted st ActPowerOn
  else if strncmp_eq cmd4 s_POWEROFF 8 then CrAccepted st ActPowerOff
  else if strncmp_eq cmd4 s_MEASURE 7 then c_measure_rsp (after_status after) st
  else if strncmp_eq cmd4 s_ECHO 4 then CrAccepted st ActEcho
  else CrAccepted st ActOther.

(* MEASURE included: trx_if_measure_rsp_cb only logs what it cannot parse *)
Lemma dispatch_accepts after cmd4 st : exists a, dispatch after cmd4 st = CrAccepted st a.
Proof.
  unfold dispatch, c_measure_rsp.
  destruct (strncmp_eq _ s_POWERON 7); [eauto|]. destruct (strncmp_eq _ s_POWEROFF 8); [eauto|].
  destruct (strncmp_eq _ s_MEASURE 7); [|destruct (strncmp_eq _ s_ECHO 4); eauto].
  destruct (scan_u _) as [[f rest]|]; [|eauto]. destruct (scan_d rest) as [[dbm r]|]; [|eauto]. destruct (freq102arfcn _); eauto.
Qed.

(* C14 (C side, TRXC), for the repaired code (commit 35bc7c1): whatever octets arrive on the control socket and whatever command is pending (or none), trx_ctrl_read_cb
   neither dereferences a NULL pointer nor reads a value it has not written *)
Theorem c_ctrl_rsp_safe : forall pending d, cr_unsafe (c_ctrl_rsp pending d) = false.
Proof.
  intros pending d. unfold c_ctrl_rsp.
  destruct (firstn _ d) as [|x data]; [reflexivity|]. rewrite cstr_app0.
  destruct (negb (strncmp_eq _ s_RSP 4)); [reflexivity|].
  destruct pending as [[crit cmdbuf]|]; [|reflexivity].
  destruct (find_sp _) as [k|]; [|destruct (negb _); reflexivity].
  destruct (negb (strncmp_eq _ _ _)); [reflexivity|].
  destruct (scan_d _) as [[resp r]|]; [|reflexivity].
  destruct (negb (resp =? 0) && crit); [reflexivity|].
  destruct (dispatch_accepts (skipn (4 + k + 1) (cstr0 (x :: data))) (skipn 4 (cstr0 cmdbuf)) resp) as [a Ha].
  unfold dispatch in Ha. rewrite Ha. reflexivity.
Qed.

(* the replies that crashed the code before the repair (DESIGN 9-6) now end the session cleanly or are ignored field-wise *)
Definition str_CMD_POWERON : list Z := [67; 77; 68; 32; 80; 79; 87; 69; 82; 79; 78].                 (* "CMD POWERON" *)
Definition str_RSP_POWERON : list Z := [82; 83; 80; 32; 80; 79; 87; 69; 82; 79; 78].                 (* "RSP POWERON" *)
Definition str_CMD_MEASURE : list Z := [67; 77; 68; 32; 77; 69; 65; 83; 85; 82; 69; 32; 57; 51; 53; 50; 48; 48].   (* "CMD MEASURE 935200" *)
Definition str_RSP_MEASURE_0 : list Z := [82; 83; 80; 32; 77; 69; 65; 83; 85; 82; 69; 32; 48].       (* "RSP MEASURE 0" *)
Example former_witnesses :
  c_ctrl_rsp (Some (true, str_CMD_POWERON)) str_RSP_POWERON = CrNoStatus                              (* was: NULL + 1 handed to sscanf *)
  /\ (forall crit cmdbuf, c_ctrl_rsp (Some (crit, cmdbuf)) s_RSP = CrNoStatus)                        (* "RSP " against any pending command *)
  /\ c_ctrl_rsp (Some (true, str_CMD_POWERON)) (str_RSP_POWERON ++ [32; 120]) = CrNoStatus            (* was: resp uninitialised *)
  /\ c_ctrl_rsp (Some (true, str_CMD_MEASURE)) str_RSP_MEASURE_0 = CrAccepted 0 ActMeasureUnparsed    (* was: buf + 14 behind the NUL *)
  /\ c_ctrl_rsp (Some (true, str_CMD_MEASURE)) (str_RSP_MEASURE_0 ++ [32; 57; 51; 53; 50; 48; 48]) = CrAccepted 0 ActMeasureUnparsed.  (* was: dbm unassigned *)
(* no repeat split: on an equation split is eq_refl, and the unifier would do the evaluation *)
Proof. split; [|split; [|split; [|split]]]; intros; vm_compute; reflexivity. Qed.

Definition valr (l : list Z) : Z := fold_right (fun c a => (c - 48) + 10 * a) 0 l.     (* value of reversed digits *)
Definition all_digits (l : list Z) : Prop := Forall (fun c => 48 <= c <= 57) l.

Lemma digits_chars l : all_digits l -> verb_chars l.
Proof. apply Forall_impl. intros c H. lia. Qed.

Lemma dec_rev_spec k : forall n, 0 <= n < 10 ^ Z.of_nat k -> (0 < k)%nat ->
  valr (dec_rev k n) = n /\ all_digits (dec_rev k n) /\ dec_rev k n <> [].
Proof.
  induction k as [|k IH]; intros n Hn Hk; [lia|].
  cbn [dec_rev]. destruct (n / 10 =? 0) eqn:E.
  - cbn [valr fold_right]. split; [lia|]. split; [repeat constructor; lia|discriminate].
  - assert (Hk' : (0 < k)%nat).
    { destruct k; [|lia]. change (10 ^ Z.of_nat 1) with 10 in Hn. lia. }
    assert (Hq : 0 <= n / 10 < 10 ^ Z.of_nat k).
    { rewrite Nat2Z.inj_succ, Z.pow_succ_r in Hn by lia. lia. }
    destruct (IH (n / 10) Hq Hk') as [Hv [Hd _]].
    cbn [valr fold_right]. fold (valr (dec_rev k (n / 10))). rewrite Hv.
    split; [lia|]. split; [constructor; [lia|exact Hd]|discriminate].
Qed.

Lemma dec_rev_len k : forall n d, 0 <= n < 10 ^ Z.of_nat (S d) -> (length (dec_rev k n) <= S d)%nat.
Proof.
  induction k as [|k IH]; intros n d Hn; cbn [dec_rev length]; [lia|].
  destruct (n / 10 =? 0) eqn:E; [cbn [length]; lia|].
  rewrite Nat2Z.inj_succ, Z.pow_succ_r in Hn by lia.
  destruct d as [|d]; [change (10 ^ Z.of_nat 0) with 1 in Hn; lia|].
  apply le_n_S, IH. lia.
Qed.

Lemma take_digits_rev l : all_digits l -> forall t acc n,
  take_digits (rev l ++ t) acc n = take_digits t (acc * 10 ^ Z.of_nat (length l) + valr l) (n + length l).
Proof.
  induction 1 as [|c l Hc _ IH]; intros t acc n.
  - cbn [rev app length valr fold_right]. rewrite Z.pow_0_r, Z.mul_1_r, Z.add_0_r, Nat.add_0_r. reflexivity.
  - cbn [rev]. rewrite <- app_assoc. cbn [app]. rewrite IH. cbn [take_digits]. unfold is_digit.
    destruct ((48 <=? c) && (c <=? 57)) eqn:E; [|lia].
    cbn [length valr fold_right]. fold (valr l). rewrite Nat2Z.inj_succ, Z.pow_succ_r by lia.
    f_equal; [ring|lia].
Qed.

Definition not_digit_head (t : list Z) : Prop := match t with [] => True | c :: _ => ~ (48 <= c <= 57) end.
Lemma not_digit_head_cstr0 t : not_digit_head t -> not_digit_head (cstr0 t).
Proof. destruct t as [|c t]; [exact id|]. cbn [cstr0]. destruct (c =? 0); [intros _; exact I|exact id]. Qed.
Lemma take_digits_stop t acc n : not_digit_head t -> take_digits t acc n = (acc, n, t).
Proof. destruct t as [|c t]; [reflexivity|]. cbn [not_digit_head take_digits]. unfold is_digit. intros H. destruct ((48 <=? c) && (c <=? 57)) eqn:E; [lia|reflexivity]. Qed.

Lemma dec_u_spec n : 0 <= n < 10 ^ 40 ->
  all_digits (dec_u n) /\ dec_u n <> [] /\ forall t, not_digit_head t -> exists cnt, take_digits (dec_u n ++ t) 0 0 = (n, S cnt, t).
Proof.
  intros Hn. unfold dec_u. destruct (dec_rev_spec 40 n Hn ltac:(lia)) as [Hv [Hd Hne]].
  split; [apply Forall_rev, Hd|]. split.
  - intros Hr. apply Hne. rewrite <- (rev_involutive (dec_rev 40 n)), Hr. reflexivity.
  - intros t Ht. rewrite take_digits_rev, take_digits_stop, Hv by assumption.
    destruct (dec_rev 40 n) as [|c l]; [congruence|]. exists (length l). reflexivity.
Qed.

Lemma scan_num_dec n t : 0 <= n < 10 ^ 40 -> not_digit_head t ->
  scan_num (dec_u n ++ t) = Some (false, n, t) /\ scan_num (45 :: dec_u n ++ t) = Some (true, n, t).
Proof.
  intros Hn Ht. destruct (dec_u_spec n Hn) as [Hd [Hne Htd]]. destruct (Htd t Ht) as [cnt Hcnt]. unfold scan_num.
  destruct (dec_u n) as [|c l]; [congruence|]. inversion Hd as [|? ? Hc _]; subst. cbn [app] in *.
  split.
  - cbn [skip_ws]. replace (is_space c) with false by (unfold is_space; lia).
    destruct (c =? 45) eqn:E45; [lia|]. destruct (c =? 43) eqn:E43; [lia|]. rewrite Hcnt. reflexivity.
  - cbn [skip_ws is_space Z.eqb Z.leb Z.compare Pos.compare Pos.compare_cont Pos.eqb andb orb]. rewrite Hcnt. reflexivity.
Qed.

Lemma scan_d_dec st t : -2147483648 <= st <= 2147483647 -> not_digit_head t -> scan_d (dec_d st ++ t) = Some (st, t).
Proof.
  intros Hst Ht. unfold scan_d, dec_d.
  destruct (st <? 0) eqn:Eneg; cbn [app].
  1: rewrite (proj2 (scan_num_dec (- st) t ltac:(lia) Ht)), Z.opp_involutive.
  2: rewrite (proj1 (scan_num_dec st t ltac:(lia) Ht)).
  all: destruct (st >? 9223372036854775807) eqn:E1; [lia|]; destruct (st <? -9223372036854775808) eqn:E2; [lia|].
  all: rewrite wrap32_id by lia; reflexivity.
Qed.

Lemma scan_u_dec n t : 0 <= n < 4294967296 -> not_digit_head t -> scan_u (dec_u n ++ t) = Some (n, t).
Proof.
  intros Hn Ht. unfold scan_u. rewrite (proj1 (scan_num_dec n t ltac:(lia) Ht)).
  destruct (n >? 18446744073709551615) eqn:E1; [lia|]. unfold u32. rewrite Z.mod_small by lia. reflexivity.
Qed.

Lemma dec_u_chars n : 0 <= n < 10 ^ 40 -> verb_chars (dec_u n).
Proof. intros Hn. apply digits_chars, (dec_u_spec n Hn). Qed.
Lemma dec_d_chars st : -2147483648 <= st <= 2147483647 -> verb_chars (dec_d st).
Proof.
  intros Hst. unfold dec_d. destruct (st <? 0) eqn:E; [constructor; [lia|]|]; apply dec_u_chars; lia.
Qed.

(* the side conditions of cstr0_app on the pieces of a reply *)
Create HintDb cstr.
#[export] Hint Resolve no_nul_RSP no_nul_SP verb_chars_no_nul dec_d_chars : cstr.

Lemma c_ctrl_rsp_matched crit cmdbuf V rest d after :
  (length d <= 1023)%nat -> cstr0 d = s_RSP ++ V ++ SP :: after -> verb_chars V -> skipn 4 (cstr0 cmdbuf) = V ++ rest ->
  c_ctrl_rsp (Some (crit, cmdbuf)) d =
    match scan_d after with
    | None => CrNoStatus
    | Some (st, _) => if negb (st =? 0) && crit then CrRejected st else dispatch after (V ++ rest) st
    end.
Proof.
  intros Hlen Hs HV Hcmd. unfold c_ctrl_rsp.
  change (Z.to_nat (trxc_buf_size - 1)) with 1023%nat. rewrite (firstn_all2 d) by exact Hlen.
  destruct d as [|x d]; [discriminate Hs|]. rewrite cstr_app0, Hs, Hcmd.
  assert (Ersp : forall X, strncmp_eq (s_RSP ++ X) s_RSP 4 = true) by reflexivity. rewrite Ersp. cbn [negb].
  change (skipn 4 (s_RSP ++ V ++ SP :: after)) with (V ++ SP :: after).
  rewrite (find_sp_app V after HV), strncmp_prefix. cbn [negb].
  rewrite (app_assoc s_RSP V). change (4 + length V)%nat with (length s_RSP + length V)%nat.
  rewrite <- app_length, skipn_field.
  destruct (scan_d after) as [[st r]|]; reflexivity.
Qed.

(* pending command "CMD <V>[ ...]" (anything may follow V), reply "RSP <V> <status><tail>" where the tail does not continue the number
   (it starts with the space before the echoed arguments, or with the NUL, or is empty) and the datagram fits the 1023 octets read() takes *)
Theorem ctrl_rsp_wellformed crit cmdbuf V st tail :
  verb_chars V -> firstn (length V) (skipn 4 (cstr0 cmdbuf)) = V ->
  -2147483648 <= st <= 2147483647 -> not_digit_head tail ->
  (length (s_RSP ++ V ++ [SP] ++ dec_d st ++ tail) <= 1023)%nat ->
  c_ctrl_rsp (Some (crit, cmdbuf)) (s_RSP ++ V ++ [SP] ++ dec_d st ++ tail) =
    if negb (st =? 0) && crit then CrRejected st else dispatch (dec_d st ++ cstr0 tail) (skipn 4 (cstr0 cmdbuf)) st.
Proof.
  intros HV Hcmd Hst Htail Hlen. apply prefix_split in Hcmd.
  rewrite (c_ctrl_rsp_matched crit cmdbuf V (skipn (length V) (skipn 4 (cstr0 cmdbuf))) _ (dec_d st ++ cstr0 tail) Hlen);
    [|rewrite !cstr0_app by auto with cstr; reflexivity|exact HV|exact Hcmd].
  rewrite scan_d_dec, <- Hcmd by auto using not_digit_head_cstr0. reflexivity.
Qed.

Definition accepted_or_rejected (r : ctrl_res) (crit : bool) (st : Z) : Prop :=
  match r with
  | CrAccepted s _ => s = st /\ (st = 0 \/ crit = false)
  | CrRejected s => s = st /\ st <> 0 /\ crit = true
  | _ => False
  end.

Theorem ctrl_rsp_decided crit cmdbuf V st tail :
  verb_chars V -> firstn (length V) (skipn 4 (cstr0 cmdbuf)) = V ->
  -2147483648 <= st <= 2147483647 -> not_digit_head tail ->
  (length (s_RSP ++ V ++ [SP] ++ dec_d st ++ tail) <= 1023)%nat ->
  accepted_or_rejected (c_ctrl_rsp (Some (crit, cmdbuf)) (s_RSP ++ V ++ [SP] ++ dec_d st ++ tail)) crit st.
Proof.
  intros HV Hcmd Hst Htail Hlen. rewrite (ctrl_rsp_wellformed crit cmdbuf V st tail HV Hcmd Hst Htail Hlen).
  destruct (dispatch_accepts (dec_d st ++ cstr0 tail) (skipn 4 (cstr0 cmdbuf)) st) as [a ->].
  destruct (st =? 0) eqn:E0, crit; cbn [negb andb accepted_or_rejected]; lia.
Qed.

Definition verbs : list (list Z) := [v_ECHO; v_POWEROFF; v_POWERON; v_MEASURE; v_SETSLOT; v_RXTUNE; v_TXTUNE; v_SETTA; v_SETFH].

Lemma verbs_ok V : In V verbs -> verb_chars V /\ (length V <= 8)%nat.
Proof. revert V. apply Forall_forall. unfold verbs, verb_chars. repeat constructor; discriminate. Qed.

Lemma ctrl_cmd_verb V args : no_nul V -> (length V <= 1018)%nat ->
  firstn (length V) (skipn 4 (cstr0 (c_ctrl_cmd V args))) = V.
Proof.
  intros HV Hl.
  assert (Hgen : forall X, firstn (length V) (skipn 4 (cstr0 (firstn 1022 ((s_CMD ++ V) ++ X)))) = V).
  { intros X. rewrite firstn_app, (firstn_all2 (s_CMD ++ V)) by (rewrite app_length; cbn [length s_CMD]; lia).
    rewrite <- app_assoc, cstr0_app by (repeat constructor; discriminate).
    change 4%nat with (length s_CMD). rewrite skipn_app_len by reflexivity. rewrite cstr0_app by exact HV. apply firstn_app_len. reflexivity. }
  unfold c_ctrl_cmd. change (Z.to_nat (ctrl_cmd_size - 2)) with 1022%nat.
  destruct args as [|a args].
  - rewrite <- (app_nil_r (s_CMD ++ V)). apply Hgen.
  - rewrite (app_assoc s_CMD V). apply Hgen.
Qed.

Definition queued (e : bool * list Z) : Prop :=
  exists V, In V verbs /\ firstn (length V) (skipn 4 (cstr0 (snd e))) = V /\ (fst e = false <-> V = v_SETTA).

Lemma queued_cmd crit V args : In V verbs -> (crit = false <-> V = v_SETTA) -> queued (crit, c_ctrl_cmd V args).
Proof.
  intros HV Hc. exists V. split; [exact HV|]. split; [|exact Hc].
  destruct (verbs_ok V HV) as [H1 H2]. apply ctrl_cmd_verb; [apply verb_chars_no_nul, H1|lia].
Qed.

(* a literal queue of c_ctrl_cmd entries: each verb is found in the table, and is SETTA or not *)
Ltac queue_lit := repeat (apply Forall_cons; [apply queued_cmd; [cbn; tauto|split; (discriminate || reflexivity)]|]); apply Forall_nil.

Lemma c_cmd_freq_queued V arfcn ul rc q : In V verbs -> V <> v_SETTA -> c_cmd_freq V arfcn ul = (rc, q) -> Forall queued q.
Proof.
  intros HV Hs. unfold c_cmd_freq. destruct (_ =? 65535); intros H; injection H as <- <-; repeat constructor.
  apply queued_cmd; [exact HV|]. split; [discriminate|contradiction].
Qed.

Lemma c_phyif_cmd_queued c : match c_phyif_cmd c with CmdQ _ q => Forall queued q | CmdOOB => True end.
Proof.
  destruct c as [| | |arfcn|arfcn|hsn maio ma|tn pchan|ta|ty]; unfold c_phyif_cmd; try queue_lit.
  - destruct (c_cmd_freq v_MEASURE arfcn false) as [rc q] eqn:E.
    apply c_cmd_freq_queued in E; [exact E|cbn; tauto|discriminate].
  - destruct (c_cmd_freq v_RXTUNE arfcn false) as [rc1 q1] eqn:E1. apply c_cmd_freq_queued in E1; [|cbn; tauto|discriminate].
    destruct (negb (rc1 =? 0)); [exact E1|].
    destruct (c_cmd_freq v_TXTUNE arfcn true) as [rc2 q2] eqn:E2. apply c_cmd_freq_queued in E2; [|cbn; tauto|discriminate].
    apply Forall_app. split; assumption.
  - destruct ma as [|a ma]; [queue_lit|].
    destruct (c_setfh_ma (a :: ma) (trxc_buf_size - 24 - 1) []) as [rc txt]. destruct (negb (rc =? 0)); queue_lit.
  - destruct (nth_error chan_types _); [queue_lit|exact I].
Qed.

(* every command text trxcon queues is "CMD <verb>[ <args>]" with one of the nine verbs; only SETTA is not critical *)
Lemma emitted_verb c rc q crit text : c_phyif_cmd c = CmdQ rc q -> In (crit, text) q ->
  exists V, In V verbs /\ firstn (length V) (skipn 4 (cstr0 text)) = V /\ (crit = false <-> V = v_SETTA).
Proof.
  intros Hc Hin. pose proof (c_phyif_cmd_queued c) as Hq. rewrite Hc, Forall_forall in Hq. exact (Hq _ Hin).
Qed.

(* C05 (trxcon side): whichever command trxcon has emitted, the reply "RSP <verb> <status>[ <anything>]" is matched (never Mismatch,
   never a crash) and decided by the status alone: accepted if 0 or the command is not critical (SETTA), else rejected.
   (The exclusion of MEASURE with status 0 is not needed, see ctrl_rsp_decided; what MEASURE then parses: ctrl_measure_wellformed.) *)
Theorem c_ctrl_accepts_wellformed c rc q crit text st tail :
  c_phyif_cmd c = CmdQ rc q -> In (crit, text) q ->
  -2147483648 <= st <= 2147483647 -> not_digit_head tail ->
  exists V, In V verbs /\ firstn (length V) (skipn 4 (cstr0 text)) = V /\
    ((length (s_RSP ++ V ++ [SP] ++ dec_d st ++ tail) <= 1023)%nat -> V <> v_MEASURE \/ st <> 0 ->
     accepted_or_rejected (c_ctrl_rsp (Some (crit, text)) (s_RSP ++ V ++ [SP] ++ dec_d st ++ tail)) crit st).
Proof.
  intros Hc Hin Hst Htail. destruct (emitted_verb _ _ _ _ _ Hc Hin) as [V [HV [Hpre _]]].
  exists V. split; [exact HV|]. split; [exact Hpre|]. intros Hlen _.
  apply ctrl_rsp_decided; try assumption. apply verbs_ok, HV.
Qed.

Lemma after_status_field w r : verb_chars w -> after_status (w ++ SP :: r) = r.
Proof. intros H. unfold after_status. rewrite find_sp_app by exact H. apply skipn_field. Qed.

Lemma c_measure_rsp_dec khz dbm t st : 0 <= khz < 4294967296 -> -2147483648 <= dbm <= 2147483647 -> not_digit_head t ->
  c_measure_rsp (dec_u khz ++ SP :: dec_d dbm ++ t) st =
    CrAccepted st (ActMeasure (u16 (khz / 100)) (match freq102arfcn (u16 (khz / 100)) with Some a => Some (a, dbm) | None => None end)).
Proof.
  intros Hk Hdbm Ht. unfold c_measure_rsp. rewrite scan_u_dec by (try lia; cbn; unfold SP; lia).
  change (scan_d (SP :: ?s)) with (scan_d s). rewrite scan_d_dec by assumption.
  destruct (freq102arfcn _); reflexivity.
Qed.

(* "RSP MEASURE <status> <kHz> <dB>...": the results are found after the status field whatever its width; they are used when the status
   lets the reply through (0, or any status if the command were not critical) *)
Theorem ctrl_measure_wellformed crit cmdbuf st khz dbm tail :
  firstn 7 (skipn 4 (cstr0 cmdbuf)) = v_MEASURE ->
  -2147483648 <= st <= 2147483647 -> (st = 0 \/ crit = false) ->
  0 <= khz < 4294967296 -> -2147483648 <= dbm <= 2147483647 -> not_digit_head tail ->
  let d := s_RSP ++ v_MEASURE ++ [SP] ++ dec_d st ++ [SP] ++ dec_u khz ++ [SP] ++ dec_d dbm ++ tail in
  (length d <= 1023)%nat ->
  c_ctrl_rsp (Some (crit, cmdbuf)) d =
    CrAccepted st (ActMeasure (u16 (khz / 100)) (match freq102arfcn (u16 (khz / 100)) with Some a => Some (a, dbm) | None => None end)).
Proof.
  intros Hcmd Hst Hacc Hk Hdbm Htail d Hlen. subst d.
  rewrite (ctrl_rsp_wellformed crit cmdbuf v_MEASURE st ([SP] ++ dec_u khz ++ [SP] ++ dec_d dbm ++ tail));
    [|apply verbs_ok; cbn; tauto|exact Hcmd|exact Hst|cbn; unfold SP; lia|exact Hlen].
  replace (negb (st =? 0) && crit) with false by (destruct Hacc as [-> | ->]; [reflexivity|symmetry; apply andb_false_r]).
  rewrite (prefix_split v_MEASURE _ Hcmd).
  change (dispatch ?a (v_MEASURE ++ ?r) st) with (c_measure_rsp (after_status a) st).
  assert (Hkc : verb_chars (dec_u khz)) by (apply dec_u_chars; lia).
  rewrite !cstr0_app by auto with cstr. cbn [app].
  rewrite after_status_field by auto with cstr. apply c_measure_rsp_dec; auto using not_digit_head_cstr0.
Qed.

(* non-vacuity: a concrete exchange *)
Example ctrl_accept_example :
  c_phyif_cmd PPowerOn = CmdQ 0 [(true, str_CMD_POWERON)]
  /\ c_ctrl_rsp (Some (true, str_CMD_POWERON)) (str_RSP_POWERON ++ [32; 48; 0]) = CrAccepted 0 ActPowerOn
  /\ c_ctrl_rsp (Some (true, str_CMD_POWERON)) (str_RSP_POWERON ++ [32; 49; 0]) = CrRejected 1
  /\ c_ctrl_rsp (Some (true, str_CMD_MEASURE)) (str_RSP_MEASURE_0 ++ [32; 57; 51; 53; 50; 48; 48; 32; 45; 55; 55; 0]) = CrAccepted 0 (ActMeasure 9352 (Some (1, -77))).
Proof. split; [|split; [|split]]; vm_compute; reflexivity. Qed.

(* 64 channels of GSM 900 (six-digit kHz values): 911 characters; 62 channels of DCS 1800 (seven digits): 1007; 63 do not fit *)
Example setfh_longest :
  (match c_phyif_cmd (PSetFreqH1 63 63 (map (fun i => 1 + Z.of_nat i) (seq 0 64))) with CmdQ 0 [(true, t)] => length t | _ => O end) = 911%nat
  /\ (match c_phyif_cmd (PSetFreqH1 63 63 (map (fun i => 512 + Z.of_nat i) (seq 0 62))) with CmdQ 0 [(true, t)] => length t | _ => O end) = 1007%nat
  /\ c_phyif_cmd (PSetFreqH1 63 63 (map (fun i => 512 + Z.of_nat i) (seq 0 63))) = CmdQ E_NOSPC [].
Proof. split; [|split]; vm_compute; reflexivity. Qed.

(* gsm_arfcn2freq10 on ARFCN_PCS | a: bit 15 selects the PCS branch, the low twelve bits are a, and no uint16_t wraps *)
Lemma arfcn2freq10_pcs a ul : 0 <= a < 4096 ->
  arfcn2freq10 (a + arfcn_pcs) ul = if ul then 17478 + 2 * a else 18278 + 2 * a.
Proof.
  intros Ha. unfold arfcn2freq10, u16. change arfcn_pcs with 32768. rewrite (Z.mod_small (a + 32768)) by lia.
  assert (E1 : Z.land (a + 32768) 32768 = 32768).
  { apply Z.bits_inj'. intros n Hn. change 32768 with (2 ^ 15) at 2 3. rewrite Z.land_spec, Z.pow2_bits_eqb by lia.
    destruct (15 =? n) eqn:E; [|apply andb_false_r]. replace n with 15 by lia.
    rewrite andb_true_r. apply Z.testbit_true; [lia|]. change (2 ^ 15) with 32768. lia. }
  assert (E2 : Z.land (a + 32768) 4095 = a).
  { change 4095 with (Z.ones 12). rewrite Z.land_ones by lia. change (2 ^ 12) with 4096. lia. }
  rewrite E1, E2. cbn [Z.eqb negb]. destruct ul; lia.
Qed.

(* it agrees with the table dumped from the real gsm_arfcn2freq10 (ARFCN 0..1023 | ARFCN_PCS) *)
Lemma sweep_freq_pcs : forallb (fun a =>
    match nth_error freq10_pcs (Z.to_nat a) with
    | Some (dl, ul) => (arfcn2freq10 (a + arfcn_pcs) false =? dl) && (arfcn2freq10 (a + arfcn_pcs) true =? ul)
    | None => false end) (range 0 1024) = true.
Proof.
  assert (H : forallb_from (fun a p => (18278 + 2 * a =? fst p) && (17478 + 2 * a =? snd p)) 0 freq10_pcs = true) by (vm_compute; reflexivity).
  apply forallb_forall. intros a Ha. apply range_in in Ha. rewrite !arfcn2freq10_pcs by lia.
  destruct (nth_error freq10_pcs (Z.to_nat a)) as [[dl ul]|] eqn:E.
  - apply (forallb_from_nth _ _ _ H) in E. rewrite Z.add_0_l, Z2Nat.id in E by lia. exact E.
  - apply nth_error_None in E. change (length freq10_pcs) with 1024%nat in E. lia.
Qed.

Ltac Zify.zify_post_hook ::= idtac.
