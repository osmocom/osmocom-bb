(* basic facts about the TRXD model: Gen constants equal the protocol numbers, octet codecs, translate tables *)
From Coq Require Import ZArith List Bool Lia ZifyBool.
From OBB Require Import Base.Range Base.Bits Gen.TrxdConst Model.Trxd.
Import ListNotations.
Open Scope Z_scope.
(* lia on / and mod, for the octet arithmetic only: reset after b0_rt *)
Ltac Zify.zify_post_hook ::= Z.to_euclidean_division_equations.

(* the regenerated constants are the protocol's *)
Lemma gen_mods : mods = [(0,148); (4,444); (6,148); (8,592); (10,740); (12,296)]. Proof. reflexivity. Qed.
Lemma gen_versions : known_versions = [0; 1]. Proof. reflexivity. Qed.
Lemma gen_hyper : gsm_hyperframe = 2715648. Proof. reflexivity. Qed.
Lemma gen_bl : gmsk_burst_len = 148 /\ edge_burst_len = 444. Proof. split; reflexivity. Qed.
Lemma gen_pwr : pwr_min = 0 /\ pwr_max = 255. Proof. split; reflexivity. Qed.
Lemma gen_rssi : rssi_min = -120 /\ rssi_max = -47. Proof. split; reflexivity. Qed.
Lemma gen_toa : toa256_min = -32768 /\ toa256_max = 32767. Proof. split; reflexivity. Qed.
Lemma gen_tsc : tsc_min = 0 /\ tsc_max = 7. Proof. split; reflexivity. Qed.
Lemma gen_ci : ci_min = -1280 /\ ci_max = 1280. Proof. split; reflexivity. Qed.
Lemma gen_nope : nope_ind = 128. Proof. reflexivity. Qed.
Lemma gen_hdr_lens : hdr_lens = [(0,6,8); (1,6,11)] /\ chdr_len = 5. Proof. split; reflexivity. Qed.

Lemma known_iff v : known v = true <-> v = 0 \/ v = 1.
Proof. unfold known. rewrite gen_versions. cbn [existsb]. lia. Qed.

Lemma be32_rt x : 0 <= x < 4294967296 -> un_be32 (be32 x) = Ok x.
Proof. intros. unfold be32, un_be32. f_equal. lia. Qed.
Lemma i16_rt x : -32768 <= x < 32768 -> un_i16 (i16 x) = Ok x.
Proof. intros. unfold i16, un_i16. cbv zeta. f_equal. destruct (_ <? _) eqn:E; lia. Qed.
Lemma be32_bytes x : Forall (fun b => 0 <= b < 256) (be32 x).
Proof. unfold be32. repeat constructor; lia. Qed.
Lemma i16_bytes x : Forall (fun b => 0 <= b < 256) (i16 x).
Proof. unfold i16. cbv zeta. repeat constructor; lia. Qed.

(* translate tables: generated lists of 256 entries, evaluated on the whole octet range *)
Lemma s2us_f s : -128 <= s < 128 -> s2us s = 127 - s.
Proof. apply (eqb_on_range s2us (fun s => 127 - s)). vm_compute. reflexivity. Qed.
Lemma us2s_f u : 0 <= u < 256 -> us2s u = (if u =? 255 then -127 else 127 - u).
Proof. apply (eqb_on_range us2s (fun u => if u =? 255 then -127 else 127 - u)). vm_compute. reflexivity. Qed.
Lemma u2s_f u : 0 <= u < 256 -> u2s u = (if u =? 0 then 127 else -127).
Proof. apply (eqb_on_range u2s (fun u => if u =? 0 then 127 else -127)). vm_compute. reflexivity. Qed.
Lemma s2u_f s : -128 <= s < 128 -> s2u s = (if s <? 0 then 1 else 0).
Proof. apply (eqb_on_range s2u (fun s => if s <? 0 then 1 else 0)). vm_compute. reflexivity. Qed.

Lemma us_rt l : Forall (fun s => -127 <= s <= 127) l -> map us2s (map s2us l) = l.
Proof.
  induction 1 as [|s l Hs _ IH]; cbn [map]; [reflexivity|]. rewrite IH. f_equal.
  rewrite s2us_f by lia. rewrite us2s_f by lia. destruct (127 - s =? 255) eqn:E; lia.
Qed.

Lemma s2us_bytes l : Forall (fun s => -128 <= s <= 127) l -> Forall (fun b => 0 <= b < 256) (map s2us l).
Proof. induction 1 as [|s l Hs _ IH]; cbn [map]; constructor; [rewrite s2us_f; lia|exact IH]. Qed.

(* a -128 soft bit validates but is not preserved: it is outside the property's [-127,127] *)
Example soft_m128_not_injective : us2s (s2us (-128)) = -127.
Proof. vm_compute. reflexivity. Qed.

Lemma b0_val v t : 0 <= v -> 0 <= t < 8 -> Z.lor (Z.shiftl v 4) (Z.land t 7) = v * 16 + t.
Proof.
  intros Hv Ht. change 7 with (Z.ones 3). rewrite Z.land_ones, Z.mod_small by lia.
  apply (lor_shift_add v 4 t); lia.
Qed.

Lemma b0_arith x : Z.shiftr x 4 = x / 16 /\ Z.land x 7 = x mod 8.
Proof. split; [apply (Z.shiftr_div_pow2 x 4)|apply (Z.land_ones x 3)]; lia. Qed.

Lemma b0_fields v t : 0 <= t < 8 -> Z.shiftr (v * 16 + t) 4 = v /\ Z.land (v * 16 + t) 7 = t.
Proof. intros Ht. destruct (b0_arith (v * 16 + t)) as [-> ->]. lia. Qed.

Lemma b0_rt v t : 0 <= v < 2 -> 0 <= t < 8 ->
  Z.shiftr (Z.lor (Z.shiftl v 4) (Z.land t 7)) 4 = v /\ Z.land (Z.lor (Z.shiftl v 4) (Z.land t 7)) 7 = t
  /\ 0 <= Z.lor (Z.shiftl v 4) (Z.land t 7) < 256.
Proof. intros Hv Ht. rewrite b0_val by lia. destruct (b0_fields v t Ht) as [-> ->]. lia. Qed.
Ltac Zify.zify_post_hook ::= idtac.

Lemma bind_ok {A B} (r : res A) (f : A -> res B) b : bind r f = Ok b -> exists a, r = Ok a /\ f a = Ok b.
Proof. destruct r; cbn; [eauto|discriminate|discriminate]. Qed.

(* a check (res unit) decides P: it returns normally if P holds and raises ValueError, nothing else, if not.  In a
   sequence a later check may rely on the earlier ones (validate_burst_rx reads mod_type.bl of a modulation they found). *)
Definition decides (r : res unit) (P : Prop) : Prop := P /\ r = Ok tt \/ ~ P /\ r = VErr.

Lemma decides_iff r P : decides r P -> (r = Ok tt <-> P).
Proof. intros [[HP ->]|[HP ->]]; split; [auto|auto|discriminate|contradiction]. Qed.
Lemma decides_cases r P : decides r P -> r = Ok tt \/ r = VErr.
Proof. intros [[_ ->]|[_ ->]]; auto. Qed.
Lemma decides_not r P : decides r P -> ~ P -> r = VErr.
Proof. intros [[HP _]|[_ E]] H; [contradiction|exact E]. Qed.
Lemma decides_ext r P Q : decides r P -> (P <-> Q) -> decides r Q.
Proof. unfold decides. tauto. Qed.
Lemma decides_and r (P Q : Prop) : P -> decides r Q -> decides r (P /\ Q).
Proof. intros HP Hr. apply (decides_ext _ _ _ Hr). tauto. Qed.
Lemma decides_false r P : ~ P -> r = VErr -> decides r P.
Proof. right. auto. Qed.
Lemma decides_bool (b : bool) : decides (if b then Ok tt else VErr) (b = true).
Proof. destruct b; [left|right]; split; [reflexivity|reflexivity|discriminate|reflexivity]. Qed.
Lemma decides_bind r f P Q : decides r P -> (P -> decides (f tt) Q) -> decides (bind r f) (P /\ Q).
Proof.
  intros [[HP ->]|[HP ->]] Hf; cbn [bind]; [|right; split; [tauto|reflexivity]].
  apply decides_and; [exact HP|exact (Hf HP)].
Qed.
Lemma decides_some {A} (o : option A) (f : A -> res unit) (P : A -> Prop) : (forall a, decides (f a) (P a)) ->
  decides (match o with Some a => f a | None => VErr end) (exists a, o = Some a /\ P a).
Proof.
  intros H. destruct o as [a|]; [|apply decides_false; [intros [a [E _]]; discriminate|reflexivity]].
  apply (decides_ext _ _ _ (H a)). split; [eauto|]. intros [a' [E Ha]]. injection E as <-. exact Ha.
Qed.
Lemma decides_in_rng lo hi o : decides (in_rng lo hi o) (exists x, o = Some x /\ lo <= x <= hi).
Proof.
  apply decides_some. intros x. destruct (_ || _) eqn:E; [right|left]; (split; [lia|reflexivity]).
Qed.

(* gen_msg: validate(), then a total computation of the octets *)
Lemma gen_iff {A} (r : res unit) (a : A) : (exists b, (_ <- r ;; Ok a) = Ok b) <-> r = Ok tt.
Proof. destruct r as [[]| |]; cbn [bind]; split; intros H; try discriminate; eauto; destruct H; discriminate. Qed.
Lemma gen_inv {A} (r : res unit) (a b : A) : (_ <- r ;; Ok a) = Ok b -> r = Ok tt /\ b = a.
Proof. destruct r as [[]| |]; cbn [bind]; [intros [= <-]; auto|discriminate|discriminate]. Qed.
Lemma gen_cases {A} (r : res unit) (a : A) : r = Ok tt \/ r = VErr -> (exists b, (_ <- r ;; Ok a) = Ok b) \/ (_ <- r ;; Ok a) = VErr.
Proof. intros [-> | ->]; cbn [bind]; eauto. Qed.

(* DATAInterface.send_msg: one datagram if gen_msg succeeds, none on ValueError *)
Lemma send_iff (g : res (list Z)) :
  (exists b, match g with Ok b => Ok [b] | VErr => Ok [] | Crash => Crash end = Ok [b]) <-> (exists b, g = Ok b).
Proof. destruct g as [b| |]; split; intros [b' H]; try discriminate; eauto. Qed.
Lemma send_none (g : res (list Z)) : (exists b, g = Ok b) \/ g = VErr -> ~ (exists b, g = Ok b) ->
  match g with Ok b => Ok [b] | VErr => Ok [] | Crash => Crash end = @Ok (list (list Z)) [].
Proof. intros [H| ->] Hn; [contradiction|reflexivity]. Qed.
