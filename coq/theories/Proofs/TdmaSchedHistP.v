(* C08 on histories: an item scheduled N < 25 frames ahead keeps its slot until the execute that follows exactly N advances;
   where the items of a set go; examples (non-vacuity, behaviour outside the quantifier). *)
From Coq Require Import ZArith List Lia Permutation ZifyBool.
From OBB Require Import Model.TdmaSched Proofs.TdmaSchedSpec Proofs.TdmaSchedSortP Proofs.TdmaSchedP Proofs.TdmaSchedRefP.
Import ListNotations.
Open Scope Z_scope.

Lemma step_keeps_due rcf st o st' b d k it : wf st -> cbs_ok st -> op_ok o -> step rcf st o = Ok (st', b) -> o <> OReset ->
  0 <= d -> d + (if is_adv o then 1 else 0) < 25 -> (o = OExecute -> d <> 0) ->
  nth_error (bucket_due st (d + (if is_adv o then 1 else 0))) k = Some it -> nth_error (bucket_due st' d) k = Some it.
Proof.
  intros Hwf Hcb Hok Hs Hnr Hd0 Hd Hex Hh.
  assert (Hext : forall s, ext st s -> nth_error (bucket_due st d) k = Some it -> nth_error (bucket_due s d) k = Some it).
  { intros s Hx H. destruct (ext_due st s d Hx) as (x & ->). rewrite nth_error_app1; [exact H|]. apply nth_error_Some. congruence. }
  destruct o as [off it0|off set p3| | |]; cbn [step op_ok is_adv] in *; rewrite ?Z.add_0_r in *.
  - destruct (schedule_ext st off it0 Hwf) as (st1 & rc & E & _ & Hx & _).
    rewrite E in Hs. injection Hs as <- _. exact (Hext st1 Hx Hh).
  - destruct Hok as (H0 & Hb & plan & Hp).
    destruct (set_ext st off set p3 plan Hwf H0 Hb Hp) as (st1 & rc & E & _ & Hx & _).
    rewrite E in Hs. injection Hs as <- _. exact (Hext st1 Hx Hh).
  - injection Hs as <- _. rewrite bucket_due_advance, Z.mod_small by lia. exact Hh.
  - destruct (execute_total rcf st Hwf Hcb) as (st1 & lg & r & E & Hst). rewrite E in Hs. injection Hs as <- _.
    destruct Hst as [->| ->]; [exact Hh|]. rewrite bucket_due_clear by (assumption || lia).
    replace (d =? 0) with false by (specialize (Hex eq_refl); lia). exact Hh.
  - congruence.
Qed.

(* counted in frames ahead the target comes one closer with every advance: no ring arithmetic in the induction *)
Lemma mid_keeps rcf k it : forall mid st os st', wf st -> cbs_ok st -> Forall op_ok mid ->
  run rcf st mid = (os, FOk st') -> quiet mid ->
  nth_error (bucket_due st (advances mid)) k = Some it -> nth_error (bucket_due st' 0) k = Some it.
Proof.
  induction mid as [|o r IH]; intros st os st' Hwf Hcb HF Hrun Hq Hh.
  - injection Hrun as _ <-. exact Hh.
  - apply Forall_cons_iff in HF as (Ho & HF). destruct (quiet_cons o r Hq) as (Hnr & Hex & Hq'). cbn [run] in Hrun.
    destruct (step_ok rcf st o Hwf Hcb Ho) as (st1 & b & Hs & Hwf1 & Hcb1). rewrite Hs in Hrun.
    destruct (run rcf st1 r) as [bs f] eqn:Er. injection Hrun as _ ->.
    destruct Hq as (Hn & _). rewrite advances_cons, Z.add_comm in Hn, Hh.
    apply (IH st1 bs st' Hwf1 Hcb1 HF Er Hq'), (step_keeps_due rcf st o st1 b); try assumption. apply advances_nonneg.
Qed.

Lemma exactly_once_on_time rcf s1 N it mid :
  wf s1 -> cbs_ok s1 -> (forall x, 0 <= rcf x) -> 0 <= N < 25 -> i_cb it <> 0 ->
  (length (bucket_due s1 N) < 8)%nat ->
  Forall op_ok mid -> advances mid = N -> no_reset mid ->
  (forall a b, mid = a ++ OExecute :: b -> advances a < N) ->
  exists s2 os s3 s4 order,
    tdma_schedule s1 N it = Ok (s2, 0) /\
    run rcf s2 mid = (os, FOk s3) /\
    nth_error (bucket_due s3 0) (length (bucket_due s1 N)) = Some it /\
    tdma_sched_execute rcf s3 = XOk s4 (map (fun j => nth j (bucket_due s3 0) dflt) order) (Z.of_nat (length (bucket_due s3 0))) /\
    Permutation order (seq 0 (length (bucket_due s3 0))) /\
    count_occ Nat.eq_dec order (length (bucket_due s1 N)) = 1%nat /\
    ascending (map (fun j => nth j (bucket_due s3 0) dflt) order) /\
    bucket_due s4 0 = [].
Proof.
  intros Hwf Hcb Hr HN Hi Hroom HF Hadv Hnr Hex.
  destruct (schedule_fits s1 N it Hwf HN Hroom) as (s2 & Hs & Hwf2 & Hcb2 & Hd2 & _). specialize (Hcb2 Hcb Hi).
  destruct (run_ok rcf mid s2 Hwf2 Hcb2 HF) as (os & s3 & Hrun & Hwf3 & Hcb3 & _).
  assert (Hh3 : nth_error (bucket_due s3 0) (length (bucket_due s1 N)) = Some it).
  { subst N. apply (mid_keeps rcf _ it mid s2 os s3); try assumption; [split; [lia|split; assumption]|].
    rewrite Hd2, nth_error_app2, Nat.sub_diag by lia. reflexivity. }
  pose proof (due_len s3 0 Hwf3) as Hlen3.
  exists s2, os, s3, (set_bucket s3 (s_cur s3) []), (slot_order (bucket_due s3 0)).
  split; [exact Hs|]. split; [exact Hrun|]. split; [exact Hh3|].
  split; [apply execute_spec; assumption|].
  split; [apply slot_order_perm, Hlen3|].
  split; [apply slot_once; [exact Hlen3|]; apply nth_error_Some; congruence|].
  split; [apply exec_order_sorted, Hlen3|].
  apply (bucket_due_clear s3 0 Hwf3). lia.
Qed.

(* where the items of a set go: frame k of the set is due k frames after the first *)
Definition plan_frame (plan : list (Z * item)) (k : Z) : list item := map snd (filter (fun e => fst e =? k) plan).

Lemma place_all_due off ret : forall plan st st', wf st ->
  Forall (fun e => 0 <= off + fst e < 25 /\ i_cb (snd e) <> 0) plan ->
  place st off plan ret = Ok (st', ret) -> ret <> -1 ->
  forall d, 0 <= d < 25 -> bucket_due st' d = bucket_due st d ++ plan_frame plan (d - off).
Proof.
  induction plan as [|[k it] r IH]; intros st st' Hwf HF Hp Hret d Hd; cbn [place] in Hp.
  - injection Hp as <-. unfold plan_frame. cbn [filter map]. rewrite app_nil_r. reflexivity.
  - apply Forall_cons_iff in HF as ((Hk & Hi) & Hr). cbn [fst snd] in *.
    destruct (le_lt_dec 8 (length (bucket_due st (off + k)))) as [Hge|Hlt].
    + rewrite (proj1 (overflow_reported st (off + k) it Hwf Hk) Hge) in Hp. cbn [Z.eqb] in Hp. injection Hp as _ Hp. congruence.
    + destruct (schedule_fits st (off + k) it Hwf Hk Hlt) as (st1 & E & Hwf1 & _ & Hd1 & Hother). rewrite E in Hp. cbn [Z.eqb] in Hp.
      rewrite (IH st1 st' Hwf1 Hr Hp Hret d Hd). unfold plan_frame. cbn [filter fst].
      destruct (k =? d - off) eqn:Ek.
      * replace d with (off + k) by lia. rewrite Hd1, <- app_assoc. reflexivity.
      * rewrite Hother by lia. reflexivity.
Qed.

Lemma set_offsets st off set p3 plan : wf st -> 0 <= off -> off + set_nframes set < 25 -> set_plan 0 set p3 = Some plan ->
  tdma_schedule_set st off set p3 = place st off plan (set_nframes set) /\
  forall st', tdma_schedule_set st off set p3 = Ok (st', set_nframes set) ->
     s_cur st' = s_cur st /\
     forall d, 0 <= d < 25 -> bucket_due st' d = bucket_due st d ++ plan_frame plan (d - off).
Proof.
  intros Hwf H0 Hb Hp. destruct (set_ext st off set p3 plan Hwf H0 Hb Hp) as (st2 & rc & E2 & _ & (Hc2 & _) & _).
  rewrite (schedule_set_place st off set p3 plan) in * by (assumption || lia).
  split; [reflexivity|]. intros st' Hs. split; [rewrite Hs in E2; injection E2 as <- _; exact Hc2|].
  apply (place_all_due off (set_nframes set) plan st st' Hwf (plan_ok_of_set off set p3 plan H0 Hb Hp) Hs).
  destruct (set_plan_frames p3 set 0 plan Hp) as (_ & Hn). lia.
Qed.

Definition ex_item (cb p1 p2 p3 prio : Z) : item := {| i_cb := cb; i_p1 := p1; i_p2 := p2; i_p3 := p3; i_prio := prio |}.
Definition ex_rcf (_ : item) : Z := 0.

(* ring position 23, an item 24 frames ahead (crosses the ring end), other traffic in between, equal and unequal priorities *)
Definition ex_mid : list op :=
  [OSched 24 (ex_item 3 1 1 1 5); OExecute; OAdvance; OSched 23 (ex_item 4 2 2 2 (-7));
   OSet 0 [ex_item 5 9 9 0 1; ex_item 0 0 0 0 0; ex_item 6 8 8 0 1; ex_item 1 0 0 0 0] 77]
  ++ repeat OAdvance 23.

Example ex_hypotheses :
  wf (init 23) /\ cbs_ok (init 23) /\ Forall op_ok ex_mid /\ advances ex_mid = 24 /\ no_reset ex_mid /\
  (forall a b, ex_mid = a ++ OExecute :: b -> advances a < 24).
Proof.
  split; [apply init_wf; lia|]. split; [apply init_wf; lia|].
  split.
  { apply Forall_app. split; [|apply Forall_forall; intros o Ho; apply repeat_spec in Ho; subst o; exact I].
    repeat constructor; cbn; try lia. eexists. reflexivity. }
  split; [reflexivity|]. split.
  { unfold no_reset, ex_mid. cbn [app]. intros [H|[H|[H|[H|[H|H]]]]]; try discriminate. apply repeat_spec in H. discriminate. }
  intros a b E. unfold ex_mid in E. cbn [app] in E.
  destruct a as [|o1 a]; [discriminate|]. injection E as <- E.
  destruct a as [|o2 a]; [cbn; lia|]. injection E as <- E.
  exfalso. assert (Hin : In OExecute (a ++ OExecute :: b)) by (apply in_or_app; right; left; reflexivity).
  rewrite <- E in Hin. cbn [In] in Hin. repeat (destruct Hin as [Hin|Hin]; [discriminate|]). exact Hin.
Qed.

Example ex_run :
  let s2 := match tdma_schedule (init 23) 24 (ex_item 2 7 7 7 5) with Ok (s, _) => s | _ => init 0 end in
  match run ex_rcf s2 ex_mid with
  | (_, FOk s3) => match tdma_sched_execute ex_rcf s3 with
                   | XOk s4 lg r => (lg, r, bucket_due s4 0)
                   | _ => ([], -5, [])
                   end
  | _ => ([], -6, [])
  end = ([ex_item 4 2 2 2 (-7); ex_item 3 1 1 1 5; ex_item 2 7 7 7 5], 3, []).
  (* note the two priority-5 items: the swap-based selection sort is not stable, they run in reverse scheduling order here *)
Proof. vm_compute. reflexivity. Qed.

(* outside C08's quantifier: a callback that reports failure makes tdma_sched_execute return at once WITHOUT clearing the
   bucket, so the items already run stay stored and run again on the next execute of that frame *)
Example negative_rc_reruns :
  let rcf := fun it => if i_cb it =? 9 then -3 else 0 in
  let st := match tdma_schedule (init 0) 0 (ex_item 2 1 1 1 0) with Ok (s, _) => s | _ => init 0 end in
  let st := match tdma_schedule st 0 (ex_item 9 2 2 2 1) with Ok (s, _) => s | _ => init 0 end in
  match tdma_sched_execute rcf st with
  | XOk st' lg r => (lg, r, bucket_due st' 0) = ([ex_item 2 1 1 1 0; ex_item 9 2 2 2 1], -3, [ex_item 2 1 1 1 0; ex_item 9 2 2 2 1])
  | _ => False
  end.
Proof. vm_compute. reflexivity. Qed.

(* outside C08's quantifier: offsets at or beyond the ring depth alias an earlier frame (N = 25 is due immediately) *)
Example offset_25_aliases_0 :
  match tdma_schedule (init 3) 25 (ex_item 2 1 1 1 0) with Ok (st, _) => bucket_due st 0 = [ex_item 2 1 1 1 0] | _ => False end.
Proof. vm_compute. reflexivity. Qed.
