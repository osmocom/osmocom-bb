(* C08: the bucket sort of tdma_sched.c (_tdma_sched_bucket_sort, on the seq[] index array) is a selection sort:
   its result is a permutation of the slot indices 0..n-1, ascending in priority. *)
From Coq Require Import ZArith List Bool Lia Permutation Sorted.
From OBB Require Import Base.Lists Gen.FwSchedConst Model.TdmaSched.
Import ListNotations.
Open Scope Z_scope.

Lemma nb_eq : c_NBUCKETS = 25. Proof. reflexivity. Qed.
Lemma ni_eq : c_NITEMS = 8. Proof. reflexivity. Qed.
Lemma ncb_eq : c_TDMASCHED_NUM_CB = 8. Proof. reflexivity. Qed.

Lemma upd_length {A} (l : list A) n v : length (upd l n v) = length l.
Proof. revert n. induction l as [|x r IH]; intros [|n]; cbn [upd length]; auto. Qed.

Lemma upd_app_r {A} (l l' : list A) n v : upd (l ++ l') (length l + n) v = l ++ upd l' n v.
Proof. induction l as [|x r IH]; cbn [app length Nat.add upd]; [reflexivity|]. rewrite IH. reflexivity. Qed.

Lemma upd_middle {A} (l l' : list A) a v : upd (l ++ a :: l') (length l) v = l ++ v :: l'.
Proof. rewrite <- (Nat.add_0_r (length l)) at 1. rewrite upd_app_r. reflexivity. Qed.

Lemma nth_error_upd_eq {A} (l : list A) n v : (n < length l)%nat -> nth_error (upd l n v) n = Some v.
Proof. revert n. induction l as [|x r IH]; intros [|n] H; cbn [length] in H; cbn [upd nth_error]; try lia; [reflexivity|]. apply IH. lia. Qed.

Lemma nth_error_upd_neq {A} (l : list A) n k v : n <> k -> nth_error (upd l n v) k = nth_error l k.
Proof. revert n k. induction l as [|x r IH]; intros [|n] [|k] H; cbn [upd nth_error]; try reflexivity; try congruence. apply IH. congruence. Qed.

(* ---- the sort seen on the list of elements in seq order: position i holds the current candidate,
        a strictly smaller later element is swapped into position i and the scan continues with it ---- *)
Fixpoint scan (key : nat -> Z) (x : nat) (rest : list nat) : nat * list nat :=
  match rest with
  | [] => (x, [])
  | y :: r => if key x >? key y then let '(m, r') := scan key y r in (m, x :: r')
              else let '(m, r') := scan key x r in (m, y :: r')
  end.

Fixpoint ssort (key : nat -> Z) (fuel : nat) (l : list nat) : list nat :=
  match fuel, l with
  | S k, x :: rest => let '(m, r') := scan key x rest in m :: ssort key k r'
  | _, _ => l
  end.

Lemma scan_spec key x rest : let '(m, r') := scan key x rest in
  Permutation (x :: rest) (m :: r') /\ key m <= key x /\ Forall (fun y => key m <= key y) r' /\ length r' = length rest.
Proof.
  revert x. induction rest as [|y r IH]; intros x; cbn [scan].
  - repeat split; auto. lia.
  - destruct (key x >? key y) eqn:E.
    + specialize (IH y). destruct (scan key y r) as [m r']. destruct IH as (P & Hle & Hall & Hlen).
      split; [rewrite P; apply perm_swap|]. split; [lia|]. split; [constructor; [lia|exact Hall]|cbn [length]; lia].
    + specialize (IH x). destruct (scan key x r) as [m r']. destruct IH as (P & Hle & Hall & Hlen).
      split; [rewrite (perm_swap y x r), P; apply perm_swap|]. split; [lia|]. split; [constructor; [lia|exact Hall]|cbn [length]; lia].
Qed.

Lemma ssort_perm key fuel : forall l, Permutation l (ssort key fuel l).
Proof.
  induction fuel as [|k IH]; intros l; cbn [ssort]; [reflexivity|]. destruct l as [|x rest]; [reflexivity|].
  pose proof (scan_spec key x rest) as H. destruct (scan key x rest) as [m r']. destruct H as (P & _).
  rewrite P. constructor. apply IH.
Qed.

Lemma ssort_sorted key fuel : forall l, (length l <= fuel)%nat -> StronglySorted (fun a b => key a <= key b) (ssort key fuel l).
Proof.
  induction fuel as [|k IH]; intros l Hl; cbn [ssort].
  - destruct l; [constructor|cbn [length] in Hl; lia].
  - destruct l as [|x rest]; [constructor|].
    pose proof (scan_spec key x rest) as H. destruct (scan key x rest) as [m r']. destruct H as (P & Hle & Hall & Hlen).
    constructor.
    + apply IH. cbn [length] in Hl. lia.
    + eapply Permutation_Forall; [apply ssort_perm|exact Hall].
Qed.

(* the index-array loops compute exactly that: candidate at |pre|, scan at |pre| + 1 + |mid|, a swap leaves the old candidate behind *)
Lemma inner_scan b : forall rest pre x mid tail,
  sort_inner b (pre ++ x :: mid ++ rest ++ tail) (length pre) (prio_at b x)
             (seq (length pre + S (length mid)) (length rest))
  = let '(m, r') := scan (prio_at b) x rest in pre ++ m :: mid ++ r' ++ tail.
Proof.
  induction rest as [|y r IH]; intros pre x mid tail; [reflexivity|].
  assert (Hnext : forall c z,
    sort_inner b (pre ++ c :: mid ++ z :: r ++ tail) (length pre) (prio_at b c) (seq (S (length pre + S (length mid))) (length r))
    = let '(m, r') := scan (prio_at b) c r in pre ++ m :: mid ++ z :: r' ++ tail).
  { intros c z. specialize (IH pre c (mid ++ [z]) tail). destruct (scan (prio_at b) c r) as [m r'].
    rewrite last_length, <- !app_assoc, Nat.add_succ_r in IH. exact IH. }
  cbn [length seq sort_inner scan app].
  rewrite nth_middle, app_nth2_plus. cbn [nth]. rewrite nth_middle.
  destruct (prio_at b x >? prio_at b y).
  - rewrite upd_middle, upd_app_r. cbn [upd]. rewrite upd_middle, Hnext.
    destruct (scan (prio_at b) y r) as [m r']. reflexivity.
  - rewrite Hnext. destruct (scan (prio_at b) x r) as [m r']. reflexivity.
Qed.

Lemma outer_ssort b l pre tail n : n = (length pre + length l)%nat ->
  sort_outer b (pre ++ l ++ tail) n (seq (length pre) (length l)) = pre ++ ssort (prio_at b) (length l) l ++ tail.
Proof.
  remember (length l) as k eqn:Hk. revert l pre Hk. induction k as [|k IH]; intros l pre Hk Hn.
  - destruct l; [reflexivity|discriminate Hk].
  - destruct l as [|x rest]; [discriminate Hk|]. injection Hk as Hk. cbn [seq sort_outer ssort app].
    rewrite nth_middle. replace (n - S (length pre))%nat with (length rest) by lia.
    pose proof (inner_scan b rest pre x [] tail) as HI. cbn [length app] in HI. rewrite Nat.add_1_r in HI. rewrite HI.
    pose proof (scan_spec (prio_at b) x rest) as HS. destruct (scan (prio_at b) x rest) as [m r']. destruct HS as (_ & _ & _ & Hlen).
    replace (pre ++ m :: r' ++ tail) with ((pre ++ [m]) ++ r' ++ tail) by (rewrite <- app_assoc; reflexivity).
    rewrite <- (last_length pre m), (IH r' (pre ++ [m])) by (rewrite ?last_length; lia).
    rewrite <- app_assoc. reflexivity.
Qed.

(* the order in which tdma_sched_execute visits the slots of a bucket with n <= 8 items *)
Definition slot_order (b : list item) : list nat := firstn (length b) (bucket_sort b).

Lemma bucket_sort_ssort b : (length b <= 8)%nat ->
  bucket_sort b = ssort (prio_at b) (length b) (seq 0 (length b)) ++ seq (length b) (8 - length b).
Proof.
  intros Hn. unfold bucket_sort. rewrite ncb_eq. change (Z.to_nat 8) with 8%nat.
  replace (seq 0 8) with (seq 0 (length b) ++ seq (length b) (8 - length b)).
  - pose proof (outer_ssort b (seq 0 (length b)) [] (seq (length b) (8 - length b)) (length b)) as H.
    rewrite seq_length in H. exact (H eq_refl).
  - transitivity (seq 0 (length b + (8 - length b))); [symmetry; apply seq_app|f_equal; lia].
Qed.

Lemma slot_order_ssort b : (length b <= 8)%nat -> slot_order b = ssort (prio_at b) (length b) (seq 0 (length b)).
Proof.
  intros Hn. unfold slot_order. rewrite bucket_sort_ssort by exact Hn. apply firstn_app_len. symmetry.
  rewrite <- (Permutation_length (ssort_perm _ _ _)). apply seq_length.
Qed.

Lemma slot_order_perm b : (length b <= 8)%nat -> Permutation (slot_order b) (seq 0 (length b)).
Proof. intros H. rewrite slot_order_ssort by exact H. symmetry. apply ssort_perm. Qed.

Lemma slot_order_sorted b : (length b <= 8)%nat ->
  StronglySorted (fun j k => prio_at b j <= prio_at b k) (slot_order b).
Proof. intros H. rewrite slot_order_ssort by exact H. apply ssort_sorted. rewrite seq_length. lia. Qed.

Lemma slot_once b k : (length b <= 8)%nat -> (k < length b)%nat -> count_occ Nat.eq_dec (slot_order b) k = 1%nat.
Proof.
  intros H Hk. rewrite (proj1 (Permutation_count_occ Nat.eq_dec _ _) (slot_order_perm b H)).
  apply (proj1 (NoDup_count_occ' Nat.eq_dec _) (seq_NoDup _ _)), in_seq. lia.
Qed.

Lemma exec_order_slots b : exec_order b = map (fun k => nth k b dflt) (slot_order b).
Proof. reflexivity. Qed.

Lemma exec_order_perm b : (length b <= 8)%nat -> Permutation (exec_order b) b.
Proof.
  intros H. rewrite exec_order_slots. rewrite <- (map_nth_seq b dflt) at 2.
  apply Permutation_map. apply slot_order_perm. exact H.
Qed.

Lemma StronglySorted_map {A B} (S : B -> B -> Prop) (f : A -> B) l :
  StronglySorted (fun x y => S (f x) (f y)) l -> StronglySorted S (map f l).
Proof. intros H. induction H as [|a l Hs IH Hall]; cbn [map]; constructor; [exact IH|]. rewrite Forall_map. exact Hall. Qed.

Lemma exec_order_sorted b : (length b <= 8)%nat ->
  StronglySorted (fun x y => i_prio x <= i_prio y) (exec_order b).
Proof. intros H. apply StronglySorted_map, slot_order_sorted, H. Qed.
