(* Bit fields of unbounded integers: what `&` with a mask 2^bl - 1, `<<`, `>>` and `|` do to the windows of a
   packed value and of a concatenation a * 2^k + b, and the bounds that `&`, `|`, `^` keep.  Standard library only. *)
From Coq Require Import ZArith List Bool Lia.
Open Scope Z_scope.

Lemma mask_ones bl : 2^bl - 1 = Z.ones bl.
Proof. rewrite Z.ones_equiv. lia. Qed.

(* `x & (2^bl - 1)` is reduction modulo 2^bl, for any integer x (Python's two's-complement view of negatives included) *)
Lemma mask_trunc x bl : 0 <= bl -> Z.land x (2^bl - 1) = x mod 2^bl.
Proof. intros. rewrite mask_ones. apply Z.land_ones; lia. Qed.

(* the masked value does not change when the value is first reduced modulo 2^bl *)
Lemma mask_mod x bl : 0 <= bl -> Z.land (x mod 2^bl) (2^bl - 1) = Z.land x (2^bl - 1).
Proof. intros. rewrite !mask_trunc by lia. apply Z.mod_mod. apply Z.pow_nonzero; lia. Qed.

(* a non-negative integer whose bits at and above k are all 0 is below 2^k, and conversely *)
Lemma highclear_lt x k : 0 <= k -> 0 <= x -> (forall p, k <= p -> Z.testbit x p = false) -> x < 2^k.
Proof.
  intros Hk Hx Hc. destruct (Z.eq_dec x 0) as [->|Hne]; [apply Z.pow_pos_nonneg; lia|].
  apply Z.log2_lt_pow2; [lia|]. destruct (Z.lt_ge_cases (Z.log2 x) k) as [Hl|Hl]; [exact Hl|].
  pose proof (Z.bit_log2 x ltac:(lia)) as Hb. rewrite Hc in Hb by lia. discriminate.
Qed.

Lemma lt_highclear x k p : 0 <= x < 2^k -> k <= p -> Z.testbit x p = false.
Proof.
  intros Hx Hp. destruct (Z.eq_dec x 0) as [->|Hne]; [apply Z.bits_0|].
  destruct (Z.lt_ge_cases k 0) as [Hk|Hk].
  - rewrite Z.pow_neg_r in Hx by lia. lia.
  - apply Z.bits_above_log2; [lia|]. apply Z.lt_le_trans with k; [apply Z.log2_lt_pow2; lia|lia].
Qed.

Lemma below_pow2 b k : 0 <= b < 2 ^ k -> 0 <= k.
Proof. intros Hb. destruct (Z.lt_ge_cases k 0); [rewrite Z.pow_neg_r in Hb; lia|assumption]. Qed.

Lemma land_lt a m n : 0 <= m < 2 ^ n -> 0 <= Z.land a m < 2 ^ n.
Proof.
  intros Hm. destruct (Z.lt_ge_cases n 0) as [Hn|Hn]; [rewrite Z.pow_neg_r in Hm by exact Hn; lia|].
  assert (H0 : 0 <= Z.land a m) by (apply Z.land_nonneg; right; lia).
  split; [exact H0|]. apply highclear_lt; [exact Hn|exact H0|].
  intros p Hp. rewrite Z.land_spec, (lt_highclear m n) by assumption. apply andb_false_r.
Qed.

Lemma lor_lt x y k : 0 <= x < 2 ^ k -> 0 <= y < 2 ^ k -> 0 <= Z.lor x y < 2 ^ k.
Proof.
  intros Hx Hy. assert (H0 : 0 <= Z.lor x y) by (apply Z.lor_nonneg; lia). split; [exact H0|].
  apply highclear_lt; [exact (below_pow2 x k Hx)|exact H0|]. intros p Hp. rewrite Z.lor_spec, (lt_highclear x k), (lt_highclear y k) by assumption. reflexivity.
Qed.

Lemma lxor_lt a b k : 0 <= a < 2 ^ k -> 0 <= b < 2 ^ k -> 0 <= Z.lxor a b < 2 ^ k.
Proof.
  intros Ha Hb. destruct (Z.lt_ge_cases k 0) as [Hk|Hk]; [rewrite Z.pow_neg_r in Ha by exact Hk; lia|].
  assert (H0 : 0 <= Z.lxor a b) by (apply Z.lxor_nonneg; lia).
  split; [exact H0|]. apply highclear_lt; [exact Hk|exact H0|].
  intros p Hp. rewrite Z.lxor_spec, (lt_highclear a k), (lt_highclear b k) by assumption. reflexivity.
Qed.

(* a concatenation a * 2^k + b with 0 <= b < 2^k: `|` of disjoint parts is `+`, the parts are read back by `>>` and `&` *)
Lemma lor_shiftl lo hi k : 0 <= k -> 0 <= lo < 2 ^ k -> Z.lor lo (Z.shiftl hi k) = lo + hi * 2 ^ k.
Proof. intros Hk Hlo. rewrite <- Z.shiftl_mul_pow2 by exact Hk.
  assert (H0 : Z.land lo (Z.shiftl hi k) = 0).
  { apply Z.bits_inj'. intros n Hn. rewrite Z.land_spec, Z.bits_0. destruct (Z.lt_ge_cases n k) as [H|H].
    - rewrite Z.shiftl_spec_low by exact H. apply andb_false_r.
    - rewrite <- (Z.mod_small lo (2 ^ k)), Z.mod_pow2_bits_high by lia. reflexivity. }
  rewrite <- Z.lxor_lor, Z.add_nocarry_lxor by exact H0. reflexivity. Qed.

Lemma lor_shift_add v w lo : 0 <= w -> 0 <= lo < 2^w -> 0 <= v ->
  Z.lor (Z.shiftl v w) lo = v * 2^w + lo.
Proof. intros Hw Hlo _. rewrite Z.lor_comm, lor_shiftl by assumption. apply Z.add_comm. Qed.

Lemma concat_shiftr a b k : 0 <= b < 2 ^ k -> Z.shiftr (a * 2 ^ k + b) k = a.
Proof.
  intros Hb. pose proof (below_pow2 b k Hb). rewrite Z.shiftr_div_pow2, Z.div_add_l, Z.div_small by lia. lia.
Qed.

Lemma extract v w lo bl : 0 <= w -> 0 <= lo < 2^w -> 0 <= v < 2^bl -> 0 <= bl ->
  Z.land (Z.shiftr (v * 2^w + lo) w) (2^bl - 1) = v.
Proof. intros Hw Hlo Hv Hbl. rewrite concat_shiftr, mask_trunc by assumption. apply Z.mod_small, Hv. Qed.

Lemma concat_testbit_lo a b k p : 0 <= b < 2 ^ k -> p < k -> Z.testbit (a * 2 ^ k + b) p = Z.testbit b p.
Proof.
  intros Hb Hp. pose proof (below_pow2 b k Hb). rewrite <- (Z.mod_pow2_bits_low (a * 2 ^ k + b) k p) by lia.
  rewrite Z.add_comm, Z.mod_add, Z.mod_small by lia. reflexivity.
Qed.

Lemma land_concat_lo a b k m : 0 <= b < 2 ^ k -> 0 <= m < 2 ^ k -> Z.land (a * 2 ^ k + b) m = Z.land b m.
Proof.
  intros Hb Hm. apply Z.bits_inj'. intros p Hp. rewrite !Z.land_spec. destruct (Z.ltb_spec p k).
  - rewrite concat_testbit_lo by lia. reflexivity.
  - rewrite (lt_highclear m k p) by assumption. rewrite !andb_false_r. reflexivity.
Qed.

Lemma land_mul_pow2 b c k : 0 <= b < 2 ^ k -> Z.land b (c * 2 ^ k) = 0.
Proof.
  intros Hb. apply Z.bits_inj'. intros p Hp. rewrite Z.land_spec, Z.bits_0. destruct (Z.ltb_spec p k).
  - rewrite Z.mul_pow2_bits_low by lia. apply andb_false_r.
  - rewrite (lt_highclear b k p) by assumption. reflexivity.
Qed.

(* bit p of one placed field: inside its window [o, o+bl) it is the bit of the value, outside it is 0 *)
Lemma field_testbit v bl o p : 0 <= bl -> 0 <= o -> 0 <= p ->
  Z.testbit (Z.shiftl (Z.land v (2^bl - 1)) o) p = (o <=? p) && (p <? o + bl) && Z.testbit v (p - o).
Proof.
  intros Hbl Ho Hp. rewrite Z.shiftl_spec by lia. rewrite mask_ones.
  destruct (Z.leb_spec o p) as [Hop|Hop].
  - rewrite Z.land_spec. rewrite Z.testbit_ones by lia.
    destruct (Z.ltb_spec p (o + bl)); destruct (Z.ltb_spec (p - o) bl); try lia;
    destruct (Z.leb_spec 0 (p - o)); try lia; cbn [andb]; rewrite ?andb_true_r, ?andb_false_r; reflexivity.
  - rewrite Z.testbit_neg_r by lia. reflexivity.
Qed.

Lemma field_nonneg v bl o : 0 <= bl -> 0 <= o -> 0 <= Z.shiftl (Z.land v (2^bl - 1)) o.
Proof. intros. apply Z.shiftl_nonneg. rewrite mask_trunc by lia. apply Z.mod_pos_bound. apply Z.pow_pos_nonneg; lia. Qed.

(* reading a window looks at the bits of the window only *)
Lemma window_ext a b o bl : 0 <= bl -> 0 <= o -> (forall p, o <= p < o + bl -> Z.testbit a p = Z.testbit b p) ->
  Z.land (Z.shiftr a o) (2 ^ bl - 1) = Z.land (Z.shiftr b o) (2 ^ bl - 1).
Proof.
  intros Hbl Ho H. apply Z.bits_inj'. intros q Hq. rewrite !Z.land_spec, !Z.shiftr_spec, mask_ones, Z.testbit_ones_nonneg by lia.
  destruct (Z.ltb_spec q bl); [rewrite H by lia; reflexivity|rewrite !andb_false_r; reflexivity].
Qed.

(* reading a window back: whatever else is OR-ed into the blob, if it is clear inside the window
   [o, o+bl), then `(blob >> o) & mask` is the field value reduced modulo 2^bl *)
Lemma extract_window v bl o other : 0 <= bl -> 0 <= o ->
  (forall p, o <= p < o + bl -> Z.testbit other p = false) ->
  Z.land (Z.shiftr (Z.lor other (Z.shiftl (Z.land v (2^bl - 1)) o)) o) (2^bl - 1) = v mod 2^bl.
Proof.
  intros Hbl Ho Hc. rewrite <- (mask_trunc v bl Hbl). apply Z.bits_inj'. intros q Hq.
  rewrite !Z.land_spec, Z.shiftr_spec by lia. rewrite Z.lor_spec. rewrite field_testbit by lia.
  rewrite mask_ones. rewrite Z.testbit_ones by lia.
  destruct (Z.ltb_spec q bl) as [Hlt|Hge].
  - rewrite Hc by lia. replace (q + o - o) with q by lia.
    destruct (Z.leb_spec o (q + o)); [|lia]. destruct (Z.ltb_spec (q + o) (o + bl)); [|lia].
    destruct (Z.leb_spec 0 q); [|lia]. cbn [andb orb]. rewrite andb_true_r. reflexivity.
  - rewrite !andb_false_r. reflexivity.
Qed.

(* what is OR-ed in does not show in a window where it is clear ... *)
Lemma window_of_lor a b o bl : 0 <= bl -> 0 <= o ->
  (forall p, o <= p < o + bl -> Z.testbit b p = false) ->
  Z.land (Z.shiftr (Z.lor a b) o) (2^bl - 1) = Z.land (Z.shiftr a o) (2^bl - 1).
Proof.
  intros Hbl Ho Hc. apply Z.bits_inj'. intros q Hq.
  rewrite !Z.land_spec, !Z.shiftr_spec by lia. rewrite Z.lor_spec. rewrite mask_ones. rewrite Z.testbit_ones by lia.
  destruct (Z.ltb_spec q bl) as [Hlt|Hge].
  - rewrite Hc by lia. rewrite orb_false_r. reflexivity.
  - rewrite !andb_false_r. reflexivity.
Qed.

Lemma window_lor_bit h n o w : 0 <= n -> 0 <= o -> 0 <= w -> n < o \/ o + w <= n ->
  Z.land (Z.shiftr (Z.lor h (2 ^ n)) o) (2 ^ w - 1) = Z.land (Z.shiftr h o) (2 ^ w - 1).
Proof.
  intros Hn Ho Hw Hout. apply window_of_lor; [assumption|assumption|]. intros p Hp.
  rewrite Z.pow2_bits_eqb by assumption. apply Z.eqb_neq. lia.
Qed.

(* ... and re-placing what was read from a window reproduces exactly the bits of the window *)
Lemma replace_window_testbit blob bl o p : 0 <= bl -> 0 <= o -> 0 <= p ->
  Z.testbit (Z.shiftl (Z.land (Z.land (Z.shiftr blob o) (2^bl - 1)) (2^bl - 1)) o) p
  = (o <=? p) && (p <? o + bl) && Z.testbit blob p.
Proof.
  intros Hbl Ho Hp. rewrite field_testbit by lia.
  destruct (Z.leb_spec o p) as [Hop|Hop]; [|reflexivity].
  destruct (Z.ltb_spec p (o + bl)) as [Hlt|Hge]; [|reflexivity]. cbn [andb].
  rewrite Z.land_spec, Z.shiftr_spec by lia. rewrite mask_ones, Z.testbit_ones by lia.
  replace (p - o + o) with p by lia.
  destruct (Z.leb_spec 0 (p - o)); [|lia]. destruct (Z.ltb_spec (p - o) bl); [|lia]. cbn [andb]. apply andb_true_r.
Qed.

(* windows of a concatenation lie in one of its parts *)
Lemma window_hi a b k o m : 0 <= b < 2 ^ k -> k <= o -> Z.land (Z.shiftr (a * 2 ^ k + b) o) m = Z.land (Z.shiftr a (o - k)) m.
Proof.
  intros Hb Ho. rewrite <- (concat_shiftr a b k Hb) at 2. rewrite Z.shiftr_shiftr by lia. do 2 f_equal. lia.
Qed.

Lemma window_lo a b k o w : 0 <= b < 2 ^ k -> 0 <= o -> 0 <= w -> o + w <= k ->
  Z.land (Z.shiftr (a * 2 ^ k + b) o) (2 ^ w - 1) = Z.land (Z.shiftr b o) (2 ^ w - 1).
Proof. intros Hb Ho Hw Hk. apply window_ext; [exact Hw|exact Ho|]. intros p Hp. apply concat_testbit_lo; [exact Hb|lia]. Qed.

Print Assumptions extract_window.
