(* integer ranges, their linear enumeration for evaluation, and the lifting of vm_compute-checked finite sweeps *)
From Coq Require Import ZArith List Bool Lia.
Import ListNotations.
Open Scope Z_scope.

Definition range (a b : Z) : list Z := map (fun i => a + Z.of_nat i) (seq 0 (Z.to_nat (b - a))).

Lemma in_range a b x : a <= x < b -> In x (range a b).
Proof. intros H. unfold range. apply in_map_iff. exists (Z.to_nat (x - a)). split; [lia|]. apply in_seq. lia. Qed.

Lemma range_in a b x : In x (range a b) -> a <= x < b.
Proof. unfold range. intros H. apply in_map_iff in H as [i [E Hi]]. apply in_seq in Hi. lia. Qed.

Lemma forallb_In {A} (f : A -> bool) l : forallb f l = true -> forall x, In x l -> f x = true.
Proof. apply forallb_forall. Qed.

Lemma forallb_range f a b : forallb f (range a b) = true -> forall x, a <= x < b -> f x = true.
Proof. intros H x Hx. apply (forallb_In f _ H), in_range, Hx. Qed.

Lemma eqb_on_range (f g : Z -> Z) a b : forallb (fun x => f x =? g x) (range a b) = true -> forall x, a <= x < b -> f x = g x.
Proof. intros H x Hx. apply Z.eqb_eq. exact (forallb_range _ _ _ H x Hx). Qed.

Lemma range_length a b : length (range a b) = Z.to_nat (b - a).
Proof. unfold range. rewrite map_length, seq_length. reflexivity. Qed.

Lemma range_nth a b k d : (k < Z.to_nat (b - a))%nat -> nth k (range a b) d = a + Z.of_nat k.
Proof. intros H. unfold range. rewrite (nth_indep _ d (a + Z.of_nat 0)) by (rewrite map_length, seq_length; exact H).
  rewrite (map_nth (fun i => a + Z.of_nat i) (seq 0 (Z.to_nat (b - a))) 0%nat k), seq_nth by exact H. reflexivity. Qed.

(* `range a b` counts its offsets in unary, so evaluating it in the kernel is quadratic in b - a; `upfrom` is linear *)
Fixpoint upfrom (a : Z) (n : nat) : list Z := match n with O => [] | S n' => a :: upfrom (a + 1) n' end.

Lemma range_upfrom a b : range a b = upfrom a (Z.to_nat (b - a)).
Proof. unfold range. generalize (Z.to_nat (b - a)) as n. intros n. revert a. induction n as [|n IH]; intros a; [reflexivity|].
  cbn [seq map upfrom]. f_equal; [lia|]. rewrite <- seq_shift, map_map, <- IH. apply map_ext. intros k. lia. Qed.

Lemma nth_error_upfrom : forall n a k, (k < n)%nat -> nth_error (upfrom a n) k = Some (a + Z.of_nat k).
Proof.
  induction n as [|n IH]; intros a [|k] H; try lia; cbn [upfrom nth_error]; [f_equal; lia | rewrite IH by lia; f_equal; lia].
Qed.

(* one pass over a table with the index carried along, in place of one nth_error walk per index *)
Fixpoint forallb_from {A} (g : Z -> A -> bool) (i : Z) (l : list A) : bool :=
  match l with [] => true | x :: r => g i x && forallb_from g (i + 1) r end.

Lemma forallb_from_nth {A} (g : Z -> A -> bool) l : forall i, forallb_from g i l = true ->
  forall k x, nth_error l k = Some x -> g (i + Z.of_nat k) x = true.
Proof.
  induction l as [|y l IH]; intros i H [|k] x Hk; cbn [nth_error] in Hk; try discriminate;
    cbn [forallb_from] in H; apply andb_prop in H as [Hy Hl].
  - injection Hk as <-. rewrite Z.add_0_r. exact Hy.
  - replace (i + Z.of_nat (S k)) with (i + 1 + Z.of_nat k) by lia. exact (IH _ Hl _ _ Hk).
Qed.
