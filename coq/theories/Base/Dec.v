(* decimal rendering of integers (Python str(int) / "%d") and its characterisation *)
From Coq Require Import ZArith List Bool Lia ZifyBool.
Ltac Zify.zify_post_hook ::= Z.to_euclidean_division_equations.
Import ListNotations.
Open Scope Z_scope.

Fixpoint dec_fuel (fuel : nat) (n : Z) (acc : list Z) : list Z :=
  match fuel with
  | O => acc
  | S f => let acc' := (48 + n mod 10) :: acc in if n <? 10 then acc' else dec_fuel f (n / 10) acc'
  end.
Definition dec_nat (n : Z) : list Z := dec_fuel (S (Z.to_nat (Z.log2 n))) n [].
Definition dec (n : Z) : list Z := if n <? 0 then 45 :: dec_nat (- n) else dec_nat n.

Definition is_dig (d : Z) : Prop := 48 <= d <= 57.
Definition dec_value (ds : list Z) : Z := fold_left (fun a d => 10 * a + (d - 48)) ds 0.

Lemma dec_value_app ds d : dec_value (ds ++ [d]) = 10 * dec_value ds + (d - 48).
Proof. unfold dec_value. rewrite fold_left_app. reflexivity. Qed.

Lemma dec_fuel_spec : forall fuel n acc, (0 < fuel)%nat -> 0 <= n < 2 ^ Z.of_nat fuel ->
  exists ds, dec_fuel fuel n acc = ds ++ acc /\ Forall is_dig ds /\ ds <> [] /\ dec_value ds = n
             /\ (0 < n -> hd 0 ds <> 48) /\ (n = 0 -> ds = [48]).
Proof.
  induction fuel as [|f IH]; intros n acc Hf Hn.
  - lia.
  - cbn [dec_fuel]. destruct (n <? 10) eqn:E.
    + exists [48 + n mod 10]. repeat split.
      * constructor; [unfold is_dig; lia | constructor].
      * discriminate.
      * unfold dec_value. cbn [fold_left]. lia.
      * cbn [hd]. lia.
      * intros ->. reflexivity.
    + rewrite Nat2Z.inj_succ, Z.pow_succ_r in Hn by lia.
      assert (Hf' : (0 < f)%nat).
      { destruct f; [|lia]. cbn in Hn. lia. }
      destruct (IH (n / 10) ((48 + n mod 10) :: acc)) as [ds [E1 [E2 [E3 [E4 [E5 E6]]]]]]; [exact Hf'|lia|].
      exists (ds ++ [48 + n mod 10]). repeat split.
      * rewrite E1, <- app_assoc. reflexivity.
      * apply Forall_app. split; [exact E2|]. constructor; [unfold is_dig; lia | constructor].
      * destruct ds; discriminate.
      * rewrite dec_value_app, E4. lia.
      * intros _. destruct ds as [|d ds']; [congruence|]. cbn [app hd]. cbn [hd] in E5. apply E5. lia.
      * intros ->. discriminate.
Qed.

Lemma dec_nat_spec n : 0 <= n ->
  Forall is_dig (dec_nat n) /\ dec_nat n <> [] /\ dec_value (dec_nat n) = n /\ (0 < n -> hd 0 (dec_nat n) <> 48) /\ (n = 0 -> dec_nat n = [48]).
Proof.
  intros Hn. unfold dec_nat.
  assert (B : 0 <= n < 2 ^ Z.of_nat (S (Z.to_nat (Z.log2 n)))).
  { rewrite Nat2Z.inj_succ, Z2Nat.id by apply Z.log2_nonneg.
    destruct (Z.eq_dec n 0) as [->|Hz]; [cbn; lia|].
    pose proof (Z.log2_spec n ltac:(lia)) as L. lia. }
  destruct (dec_fuel_spec _ n [] (Nat.lt_0_succ _) B) as [ds [E1 [E2 [E3 [E4 [E5 E6]]]]]].
  rewrite app_nil_r in E1. rewrite E1. auto.
Qed.
Ltac Zify.zify_post_hook ::= idtac.
