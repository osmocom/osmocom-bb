(* C11 - firmware and trxcon agree on the multiframe mapping of every logical channel. Statements; the proofs apply lemmas of Proofs/.
   Vocabulary (Model/Mframe.v):
     c11_rows                 the specification table: firmware task <-> (trxcon channel combination, timeslots, lchan, SACCH lchan), 35 rows
     fw_fires task kind s cur the real-table model of mframe_schedule_set(): at current frame cur the firmware hands a TDMA sched set of
                              this kind (K_NB_DL/K_NB_UL 4-burst block, K_TCH/K_TCH_A/K_TCH_D one frame) with MF_F_SACCH = s to
                              tdma_schedule_set(); it is on air SCHEDULE_AHEAD = 2 frames later
     row_layout r tn          the layout the real-table model of l1sched_mframe_layout(combination, tn) selects
     trx_first L d c fn       frames[fn % period] of layout L gives channel c, burst id 0, in direction d;  trx_owns: channel c, any burst id
     rx_burst L s fn          the model of l1sched_handle_rx_burst() (sched_trx.c) on a timeslot with layout L and channel states s
                              (s : list of (lchan type, {active, tdma.num_proc, tdma.num_lost, tdma.last_proc})) for a burst in frame fn:
                              RxOk rc bid sub dir s' = return code, bi->bid, the handler calls (lchan, fn, bid) made for substituted lost
                              frames (subst_frame_loss()), the handler call for the burst itself, the states afterwards;
                              RxOOB / RxDescOOB / RxDivZero = a read outside frames[] / outside l1sched_lchan_desc[] / fn % 0
     rx_elapsed fn lp         subst_frame_loss(): int elapsed = fn - last_proc with the half-hyperframe correction
     fn_walk n f              the n frame numbers after f: GSM_TDMA_FN_INC applied 1 .. n times (uint32_t, modulo 2715648)
     tx_pull L s fn           l1sched_pull_burst(): TxOk br->bid (lchan types whose tx handler was called);  rx_probe: l1sched_handle_rx_probe()
   Frame numbers: every current frame of the hyperframe, 0 <= cur < 2715648 (this contains every 51*26*8 = 10608 cycle and the
   wrap 2715647 -> 0); the frame on air is (cur + 2) mod 2715648. *)
From Coq Require Import ZArith List Bool.
From OBB Require Import Base.Range Gen.MframeFw Gen.MframeTrxcon Model.Mframe Proofs.MframeP Proofs.MframeRxP Proofs.MframeSchedP.
Import ListNotations.
Open Scope Z_scope.

(* the literal constants the statements below rely on *)
Theorem c11_constants :
  fw_SCHEDULE_AHEAD = 2 /\ fw_SCHEDULE_LATENCY = 1 /\ fw_GSM_MAX_FN = 2715648 /\ fw_MF_F_SACCH = 1 /\ fw_NTASKS = 32 /\
  Z.of_nat (length fw_sched) = 32 /\ tx_L1SCHED_IDLE = 0 /\ tx_LID_SACCH = 64 /\
  desc_has_handler DL tx_L1SCHED_IDLE = false /\ desc_has_handler UL tx_L1SCHED_IDLE = false.
Proof. vm_compute. repeat split; reflexivity. Qed.
Print Assumptions c11_constants.

(* block channels (BCCH, CCCH plain/combined, SDCCH/4, SDCCH/8 with their SACCHs, CBCH, PDTCH): the firmware starts a downlink /
   uplink block exactly in the frames trxcon marks as burst 0 of that channel in that direction; for PDTCH the firmware is receive-only *)
Theorem c11_block_starts_agree : forall r tn cur,
  In r c11_rows -> r_mode r <> Tch -> 0 <= tn < 8 -> tn_ok (r_tn r) tn = true -> 0 <= cur < 2715648 ->
  exists L, row_layout r tn = Some L /\
    let fn := (cur + 2) mod 2715648 in
    fw_fires (r_task r) K_NB_DL false cur = trx_first L DL (r_lchan r) fn /\
    fw_fires (r_task r) K_NB_DL true cur = trx_first_opt L DL (r_sacch r) fn /\
    (r_mode r = Block ->
       fw_fires (r_task r) K_NB_UL false cur = trx_first L UL (r_lchan r) fn /\
       fw_fires (r_task r) K_NB_UL true cur = trx_first_opt L UL (r_sacch r) fn) /\
    (r_mode r = BlockDL ->
       fw_fires (r_task r) K_NB_UL false cur = false /\ fw_fires (r_task r) K_NB_UL true cur = false).
Proof. exact block_starts_agree. Qed.
Print Assumptions c11_block_starts_agree.

(* TCH/F (task by timeslot parity) and TCH/H sub-channels 0/1: frame by frame, downlink and uplink, the firmware schedules a traffic
   frame (TCH) exactly in the frames the layout gives to TCHF / TCHH_s, a SACCH frame (TCH_A, flag SACCH) exactly in the frames of
   SACCHTF / SACCHTH_s, and a dummy (TCH_D) exactly in the frames of the other TCH/H sub-channel (never on TCH/F) *)
Theorem c11_tch_frames_agree : forall r tn cur,
  In r c11_rows -> r_mode r = Tch -> 0 <= tn < 8 -> tn_ok (r_tn r) tn = true -> 0 <= cur < 2715648 ->
  exists L, row_layout r tn = Some L /\
    let fn := (cur + 2) mod 2715648 in
    fw_fires (r_task r) K_TCH false cur = trx_owns L DL (r_lchan r) fn /\
    fw_fires (r_task r) K_TCH false cur = trx_owns L UL (r_lchan r) fn /\
    fw_fires (r_task r) K_TCH_A true cur = trx_owns_opt L DL (r_sacch r) fn /\
    fw_fires (r_task r) K_TCH_A true cur = trx_owns_opt L UL (r_sacch r) fn /\
    fw_fires (r_task r) K_TCH_D false cur = trx_owns_opt L DL (other_subchan (r_lchan r)) fn /\
    fw_fires (r_task r) K_TCH_D false cur = trx_owns_opt L UL (other_subchan (r_lchan r)) fn.
Proof. exact tch_frames_agree. Qed.
Print Assumptions c11_tch_frames_agree.

(* nothing is left out of the two comparisons: every row of a mapped task's table is NB_DL/NB_UL with flags 0 or MF_F_SACCH
   (block rows; NB_DL without flags only for PDTCH), or TCH / TCH_A+MF_F_SACCH / TCH_D (TCH rows) *)
Theorem c11_rows_accounted : forall r, In r c11_rows -> chk_row_kinds r = true.
Proof. exact (forallb_In _ _ sweep_kinds). Qed.
Print Assumptions c11_rows_accounted.

(* the table pairs the right things: for every row both stacks report the same RSL channel number -
   mframe_task2chan_nr(task, tn) = l1sched_lchan_desc[lchan].chan_nr | tn, link id 0x00, and the SACCH lchan has the same
   channel number with link id 0x40 *)
Theorem c11_rows_chan_nr : forall r tn, In r c11_rows -> 0 <= tn < 8 ->
  fw_task_chan_nr (r_task r) tn = Z.lor (desc_chan_nr (r_lchan r)) tn /\ desc_link_id (r_lchan r) = 0 /\
  (forall s, r_sacch r = Some s -> desc_chan_nr s = desc_chan_nr (r_lchan r) /\ desc_link_id s = 64).
Proof. exact rows_chan_nr. Qed.
Print Assumptions c11_rows_chan_nr.

(* burst ids: in every layout and direction, from a frame i owned by a channel c (not IDLE) to the next frame i+k owned by c
   (cyclically through the period) the burst id advances by one modulo the burst count of c
   (4; 2 for TCHH_0/TCHH_1; 1 for FCCH, SCH, RACH), and it is always below that count *)
Theorem c11_bids_cyclic : forall L d i k fr fr',
  In L tx_layouts -> ly_cfg L <> tx_GSM_PCHAN_NONE -> 0 <= i < ly_period L -> 1 <= k ->
  trx_frame L i = FrOk fr -> fr_chan d fr <> tx_L1SCHED_IDLE ->
  trx_frame L (i + k) = FrOk fr' -> fr_chan d fr' = fr_chan d fr ->
  (forall j frj, 1 <= j < k -> trx_frame L (i + j) = FrOk frj -> fr_chan d frj <> fr_chan d fr) ->
  0 <= fr_bid d fr < lchan_nbursts (fr_chan d fr) /\
  fr_bid d fr' = (fr_bid d fr + 1) mod lchan_nbursts (fr_chan d fr).
Proof. exact bids_cyclic. Qed.
Print Assumptions c11_bids_cyclic.

(* no frame lookup leaves the table: for every layout with frames (every combination but NONE) and every uint32 frame number,
   period > 0, fn % period is a row of the frames array, and both lookup sites (Tx: unsigned offset, Rx: uint8_t offset) read it *)
Theorem c11_lookup_in_table : forall L fn, In L tx_layouts -> ly_cfg L <> tx_GSM_PCHAN_NONE -> 0 <= fn < 4294967296 ->
  0 < ly_period L /\ 0 <= fn mod ly_period L < ly_nframes L /\
  exists fr, nth_error (ly_frames L) (Z.to_nat (fn mod ly_period L)) = Some fr /\ trx_frame L fn = FrOk fr /\ trx_frame_rx L fn = FrOk fr.
Proof. exact lookup_in_table. Qed.
Print Assumptions c11_lookup_in_table.

(* kept visible: the layout of GSM_PCHAN_NONE has period 0 and frames NULL; a lookup on it would divide by zero
   (no caller configures a timeslot with NONE: trxcon_fsm.c rejects it, l1ctl.c maps every CCCH mode to a CCCH combination) *)
Theorem c11_none_layout_divzero : forall L fn, In L tx_layouts -> ly_cfg L = tx_GSM_PCHAN_NONE -> trx_frame L fn = FrDivZero.
Proof. exact none_layout_divzero. Qed.
Print Assumptions c11_none_layout_divzero.

(* every channel a frame uses (everything but IDLE, which has no handler) is a valid lchan and is in the layout's lchan mask *)
Theorem c11_mask_covers : forall L fr d, In L tx_layouts -> In fr (ly_frames L) -> fr_chan d fr <> tx_L1SCHED_IDLE ->
  0 <= fr_chan d fr < tx_CHAN_MAX /\ fr_chan d fr < 64 /\ Z.testbit (ly_mask L) (fr_chan d fr) = true.
Proof. exact mask_covers. Qed.
Print Assumptions c11_mask_covers.

(* (combination, timeslot) lookup, all 128 x 8 pairs: for the nine combinations trxcon knows (c11_configs) the model of
   l1sched_mframe_layout() - which returns what the real function returned in the dumper - selects a layout of that combination
   whose slotmask contains tn; for every other combination it returns NULL *)
Theorem c11_layout_valid_for_tn : forall cfg tn, 0 <= cfg < 128 -> 0 <= tn < 8 ->
  (In cfg c11_configs ->
     exists li L, trx_layout cfg tn = Some li /\ trx_layout_real cfg tn = li /\ nth_error tx_layouts (Z.to_nat li) = Some L /\
                  ly_cfg L = cfg /\ Z.testbit (ly_slotmask L) tn = true) /\
  (~ In cfg c11_configs -> trx_layout cfg tn = None /\ trx_layout_real cfg tn = -1).
Proof. exact layout_valid_for_tn. Qed.
Print Assumptions c11_layout_valid_for_tn.

(* ... so it gets a channel state when the timeslot is configured: the model of l1sched_configure_ts() (one state per type of
   the 64-bit mask, compared with the real function for every combination and timeslot on every run) gives a state to every
   channel any frame of the layout uses, and to nothing outside the mask *)
Theorem c11_configured_has_state : forall L fr d, In L tx_layouts -> In fr (ly_frames L) -> fr_chan d fr <> tx_L1SCHED_IDLE ->
  In (fr_chan d fr) (trx_configured L).
Proof. exact configured_has_state. Qed.
Print Assumptions c11_configured_has_state.

Theorem c11_configured_only_mask : forall L c, In c (trx_configured L) -> 0 <= c < tx_CHAN_MAX /\ Z.testbit (ly_mask L) c = true.
Proof. exact configured_only_mask. Qed.
Print Assumptions c11_configured_only_mask.

(* ================================================================== the consumers of the lookup in sched_trx.c
   For every layout with frames, EVERY list of channel states and every frame number of the C type (uint32_t). *)

(* no lookup of the downlink path leaves a table: neither frames[(uint8_t)(fn % period)] of l1sched_handle_rx_burst(), nor any
   frames[GSM_TDMA_FN_INC(bi.fn) % period] of the loop in subst_frame_loss(), nor l1sched_lchan_desc[dl_chan] *)
Theorem c11_rx_lookups_in_table : forall L s fn, In L tx_layouts -> ly_cfg L <> tx_GSM_PCHAN_NONE -> 0 <= fn < 4294967296 ->
  exists rc bid sub dir s', rx_burst L s fn = RxOk rc bid sub dir s'.
Proof. exact rx_in_table. Qed.
Print Assumptions c11_rx_lookups_in_table.

(* every handler call the downlink path makes for one burst - every substituted one and the one for the burst itself - is for a
   frame number f whose row frames[f % period] has dl_chan = the called channel and carries that row's dl_bid; all of them go to the
   channel that owns the burst's own frame, and bi->bid is that frame's dl_bid *)
Theorem c11_rx_calls_are_layout_frames : forall L s fn rc bid sub dir s',
  In L tx_layouts -> ly_cfg L <> tx_GSM_PCHAN_NONE -> 0 <= fn < 4294967296 ->
  rx_burst L s fn = RxOk rc bid sub dir s' ->
  exists fr0, trx_frame L fn = FrOk fr0 /\ bid = fr_bid DL fr0 /\
    (dir = None \/ dir = Some (fr_chan DL fr0, fn, fr_bid DL fr0)) /\
    forall c f b, In (c, f, b) (rx_calls sub dir) ->
      c = fr_chan DL fr0 /\ 0 <= f < 4294967296 /\
      exists fr, trx_frame L f = FrOk fr /\ fr_chan DL fr = c /\ fr_bid DL fr = b.
Proof. exact rx_calls_owned. Qed.
Print Assumptions c11_rx_calls_are_layout_frames.

(* the complete case analysis of one burst (four theorems, hypotheses exhaustive). First the main case: the channel that owns frame fn
   has a handler and an active state that has processed a frame, and 1 .. period frames elapsed since tdma.last_proc: the handler gets
   a dummy burst for EXACTLY the frames of the walk last_proc+1, .., fn-1 (elapsed - 1 increments) that the layout gives to this
   channel, in order, each with the burst id of its row, and then the burst itself; nothing else is called *)
Theorem c11_rx_substitutes_exactly : forall L s fn fr st,
  In L tx_layouts -> ly_cfg L <> tx_GSM_PCHAN_NONE -> 0 <= fn < 4294967296 -> trx_frame L fn = FrOk fr ->
  desc_has_handler DL (fr_chan DL fr) = true -> find_st (fr_chan DL fr) s = Some st -> cs_active st = true ->
  cs_nproc st <> 0 -> 0 < rx_elapsed fn (cs_last st) <= ly_period L ->
  let c := fr_chan DL fr in
  let sub := map (fun f => (c, f, dl_bid_at L f))
                 (filter (fun f => trx_owns L DL c f) (fn_walk (Z.to_nat (rx_elapsed fn (cs_last st) - 1)) (cs_last st))) in
  rx_burst L s fn = RxOk 0 (fr_bid DL fr) sub (Some (c, fn, fr_bid DL fr))
                         (set_st c (st_after_direct (st_after_subst st sub) fn) s).
Proof. exact rx_substitutes. Qed.
Print Assumptions c11_rx_substitutes_exactly.

(* ... first burst of the channel (num_proc = 0, -EAGAIN inside), the same frame again, or more than one period elapsed (-EIO inside):
   only the burst itself goes to the handler *)
Theorem c11_rx_direct_only : forall L s fn fr st,
  In L tx_layouts -> ly_cfg L <> tx_GSM_PCHAN_NONE -> 0 <= fn < 4294967296 -> trx_frame L fn = FrOk fr ->
  desc_has_handler DL (fr_chan DL fr) = true -> find_st (fr_chan DL fr) s = Some st -> cs_active st = true ->
  cs_nproc st = 0 \/ rx_elapsed fn (cs_last st) = 0 \/ rx_elapsed fn (cs_last st) > ly_period L ->
  rx_burst L s fn = RxOk 0 (fr_bid DL fr) [] (Some (fr_chan DL fr, fn, fr_bid DL fr))
                         (set_st (fr_chan DL fr) (st_after_direct st fn) s).
Proof. exact rx_direct_only. Qed.
Print Assumptions c11_rx_direct_only.

(* ... a burst older than the last processed frame: dropped with -EALREADY (-114), no handler call, no state change *)
Theorem c11_rx_dropped : forall L s fn fr st,
  In L tx_layouts -> ly_cfg L <> tx_GSM_PCHAN_NONE -> 0 <= fn < 4294967296 -> trx_frame L fn = FrOk fr ->
  desc_has_handler DL (fr_chan DL fr) = true -> find_st (fr_chan DL fr) s = Some st -> cs_active st = true ->
  cs_nproc st <> 0 -> rx_elapsed fn (cs_last st) < 0 ->
  rx_burst L s fn = RxOk (-114) (fr_bid DL fr) [] None s.
Proof. exact rx_dropped. Qed.
Print Assumptions c11_rx_dropped.

(* ... a frame of a channel without handler (IDLE), without channel state or not active: no handler call, no state change
   (return code 0 for an inactive channel, -ENODEV = -19 otherwise) *)
Theorem c11_rx_no_call : forall L s fn fr,
  In L tx_layouts -> ly_cfg L <> tx_GSM_PCHAN_NONE -> 0 <= fn < 4294967296 -> trx_frame L fn = FrOk fr ->
  desc_has_handler DL (fr_chan DL fr) = false \/ st_active s (fr_chan DL fr) = false ->
  exists rc, rx_burst L s fn = RxOk rc (fr_bid DL fr) [] None s /\ (rc = 0 \/ rc = -19).
Proof. exact rx_no_call. Qed.
Print Assumptions c11_rx_no_call.

(* reading the two theorems above on valid frame numbers (0 .. 2715647): elapsed is the forward distance (fn - last_proc) modulo the
   hyperframe, taken as negative from half a hyperframe on; the walk is last_proc+1, last_proc+2, .. modulo the hyperframe - so the
   substituted frames are the frames strictly between last_proc and fn; and because every period divides 2715648 the row of a frame
   number continues through the wrap 2715647 -> 0 *)
Theorem c11_rx_elapsed_valid : forall fn lp, 0 <= fn < 2715648 -> 0 <= lp < 2715648 ->
  rx_elapsed fn lp = let e := (fn - lp) mod 2715648 in if e <? 1357824 then e else e - 2715648.
Proof. exact rx_elapsed_valid. Qed.
Print Assumptions c11_rx_elapsed_valid.

Theorem c11_fn_walk_frames : forall n f, 0 <= f < 2715648 ->
  length (fn_walk n f) = n /\ forall k, (k < n)%nat -> nth k (fn_walk n f) 0 = (f + 1 + Z.of_nat k) mod 2715648.
Proof. exact (fun n f Hf => conj (fn_walk_length n f) (fun k => fn_walk_nth n f k Hf)). Qed.
Print Assumptions c11_fn_walk_frames.

Theorem c11_period_divides_hyperframe : forall L x, In L tx_layouts -> ly_cfg L <> tx_GSM_PCHAN_NONE ->
  2715648 mod ly_period L = 0 /\ (x mod 2715648) mod ly_period L = x mod ly_period L.
Proof. exact hyper_rows. Qed.
Print Assumptions c11_period_divides_hyperframe.

(* uplink: l1sched_pull_burst() reads frames[fn % period] inside the table, reports that row's ul_bid in br->bid and calls the tx
   handler of that row's ul_chan - only that one, and only when it has a handler and an active channel state *)
Theorem c11_pull_burst_row : forall L s fn, In L tx_layouts -> ly_cfg L <> tx_GSM_PCHAN_NONE -> 0 <= fn < 4294967296 ->
  exists fr, trx_frame L fn = FrOk fr /\
    tx_pull L s fn = TxOk (fr_bid UL fr)
                          (if desc_has_handler UL (fr_chan UL fr) && st_active s (fr_chan UL fr) then [fr_chan UL fr] else []).
Proof. exact tx_pull_spec. Qed.
Print Assumptions c11_pull_burst_row.

(* l1sched_handle_rx_probe() reads frames[fn % period] inside the table: 0 and the ACTIVE flag (1) or-ed in for an active state of the
   row's dl_chan, -ENODEV (-19) when that channel has no handler or no state *)
Theorem c11_rx_probe_row : forall L s fn fl, In L tx_layouts -> ly_cfg L <> tx_GSM_PCHAN_NONE -> 0 <= fn < 4294967296 ->
  exists fr, trx_frame L fn = FrOk fr /\
    rx_probe L s fn fl =
      match (if desc_has_handler DL (fr_chan DL fr) then find_st (fr_chan DL fr) s else None) with
      | Some st => PrOk 0 (if cs_active st then Z.lor fl 1 else fl)
      | None => PrOk (-19) fl
      end.
Proof. exact rx_probe_spec. Qed.
Print Assumptions c11_rx_probe_row.

(* both depend on fn through fn mod period only (the correspondence runs them over whole periods) *)
Theorem c11_pull_probe_periodic : forall L s fl x y, 0 < ly_period L -> 0 <= x < 4294967296 -> 0 <= y < 4294967296 ->
  x mod ly_period L = y mod ly_period L -> tx_pull L s x = tx_pull L s y /\ rx_probe L s x fl = rx_probe L s y fl.
Proof. exact tx_probe_periodic. Qed.
Print Assumptions c11_pull_probe_periodic.

(* the main case once more, read on valid frame numbers only (both inside the hyperframe): with d = (fn - last_proc) mod 2715648 and
   0 < d <= period the substituted frames are exactly those of last_proc + 1, .., last_proc + d - 1 (mod 2715648; last_proc + d = fn)
   that the layout gives to the channel, in order, each with the burst id of its row *)
Theorem c11_rx_substitutes_between : forall L s fn fr st,
  In L tx_layouts -> ly_cfg L <> tx_GSM_PCHAN_NONE -> 0 <= fn < 2715648 -> trx_frame L fn = FrOk fr ->
  desc_has_handler DL (fr_chan DL fr) = true -> find_st (fr_chan DL fr) s = Some st -> cs_active st = true ->
  cs_nproc st <> 0 -> 0 <= cs_last st < 2715648 ->
  let d := (fn - cs_last st) mod 2715648 in
  0 < d <= ly_period L ->
  let c := fr_chan DL fr in
  let sub := map (fun f => (c, f, dl_bid_at L f))
                 (filter (fun f => trx_owns L DL c f) (map (fun k => (cs_last st + k) mod 2715648) (range 1 d))) in
  rx_burst L s fn = RxOk 0 (fr_bid DL fr) sub (Some (c, fn, fr_bid DL fr))
                         (set_st c (st_after_direct (st_after_subst st sub) fn) s).
Proof. exact rx_substitutes_between. Qed.
Print Assumptions c11_rx_substitutes_between.

(* ================================================================== the firmware scheduler state (mframe_sched.c)
   mfst = {tasks, tasks_tgt, safe_fn};  mf_enable / mf_disable / mf_set / mf_reset = the requests;  mf_schedule cur s = mframe_schedule()
   at current frame cur: (the tdma_schedule_set() calls, the state afterwards);  mf_tasks_after cur s = tasks after the update at the top of
   mframe_schedule() (tasks_tgt when the safe test holds, tasks & tasks_tgt otherwise);  mf_task_calls cur s t = the calls of that tick for
   task t;  mf_fires = fw_fires on them;  mf_run ops s = a history of requests (OpEnable / OpDisable / OpSet / OpReset) and ticks (OpTick cur). *)

(* mframe_schedule() makes exactly the calls of the per-tick core fw_mframe_schedule (the function of the theorems above) for the task mask
   after the update: for task 0, 1, .., 31 in this order the calls of mframe_schedule_set(task) if the task is active, nothing otherwise *)
Theorem c11_sched_tick_calls : forall cur s,
  fst (mf_schedule cur s) = fw_mframe_schedule (mf_tasks_after cur s) cur /\
  forall cs, fst (mf_schedule cur s) = FwOk cs -> cs = flat_map (mf_task_calls cur s) (range 0 32).
Proof. exact (fun cur s => conj (tick_core cur s) (tick_flat cur s)). Qed.
Print Assumptions c11_sched_tick_calls.

(* (a) a disable takes effect at the very next mframe_schedule(): a task that is not in tasks_tgt is not active after the update, whatever
   the safe test says, and the tick makes no call for it ... *)
Theorem c11_sched_disable_immediate : forall cur s t, 0 <= t -> Z.testbit (ms_tgt s) t = false ->
  Z.testbit (mf_tasks_after cur s) t = false /\ mf_task_calls cur s t = [] /\ forall kind sacch, mf_fires cur s t kind sacch = false.
Proof. exact (fun cur s t _ => disable_immediate cur s t). Qed.
Print Assumptions c11_sched_disable_immediate.

(* ... and it stays out of tasks_tgt through every history of ticks and requests that does not switch it on again
   (op_keeps_off t: no mframe_enable(t), no mframe_set() with bit t; task numbers 0..31), so it starts no block from then on *)
Theorem c11_sched_stays_off : forall t ops s, 0 <= t < 32 -> forallb (op_keeps_off t) ops = true ->
  Z.testbit (ms_tgt s) t = false -> Z.testbit (ms_tgt (mf_run ops s)) t = false.
Proof. exact stays_off. Qed.
Print Assumptions c11_sched_stays_off.

(* (b) an enable is never lost: mframe_schedule() never writes tasks_tgt ... *)
Theorem c11_sched_tick_keeps_target : forall cur s, ms_tgt (mf_step s (OpTick cur)) = ms_tgt s.
Proof. exact (fun cur s => proj2 (schedule_fields cur s)). Qed.
Print Assumptions c11_sched_tick_keeps_target.

(* ... so a requested task stays requested through every history that does not take the request back (op_keeps_on t: no mframe_disable(t),
   no mframe_set() without bit t, no mframe_reset()) ... *)
Theorem c11_sched_request_kept : forall t ops s, 0 <= t < 32 -> forallb (op_keeps_on t) ops = true ->
  Z.testbit (ms_tgt s) t = true -> Z.testbit (ms_tgt (mf_run ops s)) t = true.
Proof. exact request_kept. Qed.
Print Assumptions c11_sched_request_kept.

(* ... at a tick where the safe test holds every requested task becomes active ("enabled and the safe test holds => active") ... *)
Theorem c11_sched_safe_means_target : forall cur s, mf_safe_test cur s = true -> mf_tasks_after cur s = ms_tgt s.
Proof. exact safe_means_target. Qed.
Print Assumptions c11_sched_safe_means_target.

(* ... and an active, still requested task stays active through every such history (at every prefix, hence at every tick of it) *)
Theorem c11_sched_stays_on : forall t ops s, 0 <= t < 32 -> forallb (op_keeps_on t) ops = true ->
  Z.testbit (ms_tasks s) t = true -> Z.testbit (ms_tgt s) t = true ->
  Z.testbit (ms_tasks (mf_run ops s)) t = true /\ Z.testbit (ms_tgt (mf_run ops s)) t = true.
Proof. exact stays_on. Qed.
Print Assumptions c11_sched_stays_on.

(* (c) liveness. Every sched set the tables refer to has 2 .. 6 frames (Gen fw_set_frames), so a started set moves safe_fn at most 6 - 2 = 4
   frames ahead.  Invariant mf_inv cur s ("as left by the tick of frame cur"): safe_fn is force-safe (>= 2715648) or at most 4 frames ahead of
   cur modulo 2715648.  It holds after mframe_reset(), requests do not touch safe_fn, the first tick behind a reset (at any frame)
   establishes it and the tick of the NEXT frame keeps it - through the hyperframe wrap too *)
Theorem c11_sched_safe_fn_invariant :
  (forall cur, mf_inv cur mf_reset = true /\ ms_safe mf_reset = 4294967295) /\
  (forall o s, (forall cur, o <> OpTick cur) -> o <> OpReset -> ms_tasks (mf_step s o) = ms_tasks s /\ ms_safe (mf_step s o) = ms_safe s) /\
  (forall c1 s, 0 <= c1 < 2715648 -> 2715648 <= ms_safe s < 4294967296 ->
     mf_inv c1 (snd (mf_schedule c1 s)) = true /\ ms_safe (snd (mf_schedule c1 s)) < 4294967296) /\
  (forall cur s, 0 <= cur < 2715648 -> ms_safe s < 4294967296 -> mf_inv cur s = true ->
     let c1 := (cur + 1) mod 2715648 in
     mf_inv c1 (snd (mf_schedule c1 s)) = true /\ ms_safe (snd (mf_schedule c1 s)) < 4294967296).
Proof. exact (conj inv_reset (conj requests_keep_tasks_and_safe (conj inv_first_tick inv_tick))). Qed.
Print Assumptions c11_sched_safe_fn_invariant.

(* under the invariant "not safe" lasts at most 4 frames: with safe_fn j <= 4 frames ahead of cur the test holds at frame cur + j .. cur + 4;
   a tick that starts nothing leaves safe_fn alone or (safe branch) forgets it *)
Theorem c11_sched_not_safe_at_most_4_ticks : forall cur s j, 0 <= cur < 2715648 -> ms_safe s < 4294967296 -> mf_inv cur s = true ->
  0 <= j <= 4 -> (2715648 <= ms_safe s \/ (ms_safe s - cur) mod 2715648 <= j) ->
  mf_safe_test ((cur + j) mod 2715648) s = true.
Proof. exact (fun cur s j Hc _ => safe_after_at_most_4 cur s j Hc). Qed.
Print Assumptions c11_sched_not_safe_at_most_4_ticks.

Theorem c11_sched_quiet_tick_safe_fn : forall cur s, fst (mf_schedule cur s) = FwOk [] ->
  ms_safe (snd (mf_schedule cur s)) = mf_safe_after_test cur s.
Proof. exact quiet_tick_safe. Qed.
Print Assumptions c11_sched_quiet_tick_safe_fn.

(* the state as left by the tick of frame cur, task t requested (before the tick of frame cur + 1): if the ticks of the next three frames start
   no set, t is active after the tick of frame cur + 4 at the latest (K = 6 frames per set at most: K - 2 ticks) - unconditional on reachable
   states; a set started in between restarts the count (the invariant above still holds then) *)
Theorem c11_sched_enable_live : forall s0 cur t, 0 <= cur < 2715648 -> 0 <= t < 32 -> ms_safe s0 < 4294967296 -> mf_inv cur s0 = true ->
  Z.testbit (ms_tgt s0) t = true ->
  let c1 := (cur + 1) mod 2715648 in let c2 := (cur + 2) mod 2715648 in
  let c3 := (cur + 3) mod 2715648 in let c4 := (cur + 4) mod 2715648 in
  let s1 := snd (mf_schedule c1 s0) in let s2 := snd (mf_schedule c2 s1) in
  let s3 := snd (mf_schedule c3 s2) in let s4 := snd (mf_schedule c4 s3) in
  fst (mf_schedule c1 s0) = FwOk [] -> fst (mf_schedule c2 s1) = FwOk [] -> fst (mf_schedule c3 s2) = FwOk [] ->
  Z.testbit (ms_tasks s4) t = true.
Proof. exact enable_live. Qed.
Print Assumptions c11_sched_enable_live.

(* (d) from the tick at which it is active, a task starts its blocks exactly in the frames of c11_block_starts_agree / c11_tch_frames_agree:
   the two theorems with the mask replaced by "active in the scheduler state after the update of this tick" *)
Theorem c11_sched_block_starts_agree : forall r tn cur s,
  In r c11_rows -> r_mode r <> Tch -> 0 <= tn < 8 -> tn_ok (r_tn r) tn = true -> 0 <= cur < 2715648 ->
  Z.testbit (mf_tasks_after cur s) (r_task r) = true ->
  exists L, row_layout r tn = Some L /\
    let fn := (cur + 2) mod 2715648 in
    mf_fires cur s (r_task r) K_NB_DL false = trx_first L DL (r_lchan r) fn /\
    mf_fires cur s (r_task r) K_NB_DL true = trx_first_opt L DL (r_sacch r) fn /\
    (r_mode r = Block ->
       mf_fires cur s (r_task r) K_NB_UL false = trx_first L UL (r_lchan r) fn /\
       mf_fires cur s (r_task r) K_NB_UL true = trx_first_opt L UL (r_sacch r) fn) /\
    (r_mode r = BlockDL ->
       mf_fires cur s (r_task r) K_NB_UL false = false /\ mf_fires cur s (r_task r) K_NB_UL true = false).
Proof.
  intros r tn cur s Hr Hm Htn Hok Hcur Ha. destruct (block_starts_agree r tn cur Hr Hm Htn Hok Hcur) as [L H].
  exists L. cbv zeta. rewrite !(fires_active cur s _ _ _ Ha). exact H.
Qed.
Print Assumptions c11_sched_block_starts_agree.

Theorem c11_sched_tch_frames_agree : forall r tn cur s,
  In r c11_rows -> r_mode r = Tch -> 0 <= tn < 8 -> tn_ok (r_tn r) tn = true -> 0 <= cur < 2715648 ->
  Z.testbit (mf_tasks_after cur s) (r_task r) = true ->
  exists L, row_layout r tn = Some L /\
    let fn := (cur + 2) mod 2715648 in
    mf_fires cur s (r_task r) K_TCH false = trx_owns L DL (r_lchan r) fn /\
    mf_fires cur s (r_task r) K_TCH false = trx_owns L UL (r_lchan r) fn /\
    mf_fires cur s (r_task r) K_TCH_A true = trx_owns_opt L DL (r_sacch r) fn /\
    mf_fires cur s (r_task r) K_TCH_A true = trx_owns_opt L UL (r_sacch r) fn /\
    mf_fires cur s (r_task r) K_TCH_D false = trx_owns_opt L DL (other_subchan (r_lchan r)) fn /\
    mf_fires cur s (r_task r) K_TCH_D false = trx_owns_opt L UL (other_subchan (r_lchan r)) fn.
Proof.
  intros r tn cur s Hr Hm Htn Hok Hcur Ha. destruct (tch_frames_agree r tn cur Hr Hm Htn Hok Hcur) as [L H].
  exists L. cbv zeta. rewrite !(fires_active cur s _ _ _ Ha). exact H.
Qed.
Print Assumptions c11_sched_tch_frames_agree.

(* ================================================================== from the channel number to the combination trxcon configures
   trx_chan_nr2pchan = the model of l1sched_chan_nr2pchan_config() (sched_trx.c): the combination handle_dch_est_req() hands to
   l1sched_configure_ts() when a dedicated channel is established. *)

(* the model is the real function on all 256 channel numbers (tx_resolve: its results, regenerated on every run) *)
Theorem c11_resolver_is_real : forall c, 0 <= c < 256 -> trx_chan_nr2pchan c = nth (Z.to_nat c) tx_resolve (-1).
Proof. intros c Hc. apply Z.eqb_eq. exact (forallb_range _ _ _ sweep_resolver c Hc). Qed.
Print Assumptions c11_resolver_is_real.

(* for every row of the table and every timeslot: the channel number the firmware reports for the row's task (mframe_task2chan_nr, the
   number both stacks agree on by c11_rows_chan_nr) resolves - for a dedicated channel (everything but BCCH / CCCH) - to a combination
   under which the table has this very task with the same channel, SACCH, timeslots and mode; BCCH / CCCH numbers resolve to NONE
   (they are not established through a channel number) *)
Theorem c11_chan_nr_resolves_to_row_combination : forall r tn, In r c11_rows -> 0 <= tn < 8 ->
  let cfg := trx_chan_nr2pchan (fw_task_chan_nr (r_task r) tn) in
  (row_dedicated r = true ->
     exists r', In r' c11_rows /\ r_cfg r' = cfg /\ r_task r' = r_task r /\ r_lchan r' = r_lchan r /\ r_sacch r' = r_sacch r /\
                r_tn r' = r_tn r /\ r_mode r' = r_mode r) /\
  (row_dedicated r = false -> cfg = tx_GSM_PCHAN_NONE).
Proof.
  intros r tn Hr Htn cfg. pose proof (chan_nr_resolves r tn Hr Htn) as H. cbv zeta in H. fold cfg in H.
  split; intros D; rewrite D in H; [|exact H]. eexists. split; [exact H | repeat split].
Qed.
Print Assumptions c11_chan_nr_resolves_to_row_combination.

(* ... so in the layout trxcon selects for the resolved combination on that timeslot, the frames in which the firmware starts the blocks
   of the task are exactly the layout's burst-0 frames of the row's channel (c11_block_starts_agree composed with the resolver) ... *)
Theorem c11_dch_est_block_starts_agree : forall r tn cur,
  In r c11_rows -> row_dedicated r = true -> r_mode r <> Tch -> 0 <= tn < 8 -> tn_ok (r_tn r) tn = true -> 0 <= cur < 2715648 ->
  exists r' L, In r' c11_rows /\ r_cfg r' = trx_chan_nr2pchan (fw_task_chan_nr (r_task r) tn) /\ row_layout r' tn = Some L /\
    let fn := (cur + 2) mod 2715648 in
    fw_fires (r_task r) K_NB_DL false cur = trx_first L DL (r_lchan r) fn /\
    fw_fires (r_task r) K_NB_DL true cur = trx_first_opt L DL (r_sacch r) fn /\
    (r_mode r = Block ->
       fw_fires (r_task r) K_NB_UL false cur = trx_first L UL (r_lchan r) fn /\
       fw_fires (r_task r) K_NB_UL true cur = trx_first_opt L UL (r_sacch r) fn) /\
    (r_mode r = BlockDL ->
       fw_fires (r_task r) K_NB_UL false cur = false /\ fw_fires (r_task r) K_NB_UL true cur = false).
Proof.
  intros r tn cur Hr Hd Hm Htn Hok Hcur. pose proof (chan_nr_resolves r tn Hr Htn) as Hin. cbv zeta in Hin. rewrite Hd in Hin.
  destruct (block_starts_agree _ tn cur Hin Hm Htn Hok Hcur) as [L H].
  eexists _, L. split; [exact Hin|]. split; [reflexivity | exact H].
Qed.
Print Assumptions c11_dch_est_block_starts_agree.

(* ... and the TCH / SACCH-T frames are exactly the layout's frames of TCHF / TCHH_s / SACCHT* *)
Theorem c11_dch_est_tch_frames_agree : forall r tn cur,
  In r c11_rows -> row_dedicated r = true -> r_mode r = Tch -> 0 <= tn < 8 -> tn_ok (r_tn r) tn = true -> 0 <= cur < 2715648 ->
  exists r' L, In r' c11_rows /\ r_cfg r' = trx_chan_nr2pchan (fw_task_chan_nr (r_task r) tn) /\ row_layout r' tn = Some L /\
    let fn := (cur + 2) mod 2715648 in
    fw_fires (r_task r) K_TCH false cur = trx_owns L DL (r_lchan r) fn /\
    fw_fires (r_task r) K_TCH false cur = trx_owns L UL (r_lchan r) fn /\
    fw_fires (r_task r) K_TCH_A true cur = trx_owns_opt L DL (r_sacch r) fn /\
    fw_fires (r_task r) K_TCH_A true cur = trx_owns_opt L UL (r_sacch r) fn /\
    fw_fires (r_task r) K_TCH_D false cur = trx_owns_opt L DL (other_subchan (r_lchan r)) fn /\
    fw_fires (r_task r) K_TCH_D false cur = trx_owns_opt L UL (other_subchan (r_lchan r)) fn.
Proof.
  intros r tn cur Hr Hd Hm Htn Hok Hcur. pose proof (chan_nr_resolves r tn Hr Htn) as Hin. cbv zeta in Hin. rewrite Hd in Hin.
  destruct (tch_frames_agree _ tn cur Hin Hm Htn Hok Hcur) as [L H].
  eexists _, L. split; [exact Hin|]. split; [reflexivity | exact H].
Qed.
Print Assumptions c11_dch_est_tch_frames_agree.
