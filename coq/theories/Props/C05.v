(* C05 - every TRXC command gets exactly one well-formed response with documented effect. Statements; the proofs apply lemmas of Proofs/. *)
From Coq Require Import ZArith List Bool Lia.
From OBB Require Import Gen.TrxIfConst Model.TrxIf Proofs.TrxIfP Proofs.TrxIfCtrlP Proofs.TrxIfSetfhP.
From OBB Require Import Base.Dec Gen.TrxdConst Gen.FakeTrxConst Model.Trxd Model.Trx
  Proofs.TrxDrop Proofs.TrxMeta Proofs.TrxInv Proofs.TrxCtrl Proofs.TrxSession.
Import ListNotations.
Open Scope Z_scope.

(* for every (ASCII) control datagram, on any reachable world: a datagram that does not begin with 'CMD' gets no reply and changes
   nothing; one that does gets exactly one reply 'RSP <verb> <status> <original arguments> [results]' NUL, <verb>/<arguments> being the
   tokens of the request *)
Theorem c05_one_reply : forall w i data draws, wf_world w -> (i < length (w_trx w))%nat -> ascii data ->
  let '(w', out, _) := handle_rx w i data draws in
  (starts s_CMD (firstn (Z.to_nat ctrl_recv_size) data) = false -> out = RNone /\ w' = w) /\
  (starts s_CMD (firstn (Z.to_nat ctrl_recv_size) data) = true ->
     exists verb args rc extra, tokens w data = verb :: args /\
       out = RReply (s_RSP ++ join_sp (verb :: py_str rc :: args ++ extra) ++ [0])).
Proof. exact one_reply. Qed.
Print Assumptions c05_one_reply.

(* --- the command table, requests = [verb; decimal arguments] --- *)
Theorem c05_poweron : forall w i t draws, nth_error (w_trx w) i = Some t ->
  parse_cmd w i [v_POWERON] draws =
    if x_run t then (w, CStatus (-1) [], draws) else if ready t then (power_event w i true, CStatus 0 [], draws) else (w, CStatus (-1) [], draws).
Proof. intros w i t draws Et. start_cmd t Et. eval_verb_tests. destruct (x_run t); [reflexivity|]. destruct (ready t); reflexivity. Qed.
Print Assumptions c05_poweron.

Theorem c05_poweroff : forall w i t draws, nth_error (w_trx w) i = Some t -> parse_cmd w i [v_POWEROFF] draws = (power_event w i false, CStatus 0 [], draws).
Proof. intros w i t draws Et. start_cmd t Et. eval_verb_tests. reflexivity. Qed.
Print Assumptions c05_poweroff.

Theorem c05_tune : forall w i t a draws, nth_error (w_trx w) i = Some t ->
  parse_cmd w i [v_RXTUNE; py_str a] draws = (upd_trx w i (fun t => set_rx t (Some (a * 1000))), CStatus 0 [], draws) /\
  parse_cmd w i [v_TXTUNE; py_str a] draws = (upd_trx w i (fun t => set_tx t (Some (a * 1000))), CStatus 0 [], draws).
Proof. intros w i t a draws Et. split; start_cmd t Et; eval_verb_tests; rewrite arg1; reflexivity. Qed.
Print Assumptions c05_tune.

(* SETFORMAT: out of range -> -1; known version -> applied and echoed; otherwise the highest supported lower version (1) is suggested *)
Theorem c05_setformat : forall w i t v draws, nth_error (w_trx w) i = Some t ->
  parse_cmd w i [v_SETFORMAT; py_str v] draws =
    if (v <? 0) || (v >? 15) then (w, CStatus (-1) [], draws)
    else if (v =? 0) || (v =? 1) then (upd_trx w i (fun t => set_ver t v), CStatus v [], draws)
    else (w, CStatus 1 [], draws).
Proof.
  intros w i t v draws Et. start_cmd t Et. eval_verb_tests. rewrite arg1. change chdr_version_max with 15.
  destruct ((v <? 0) || (v >? 15)) eqn:E1; [reflexivity|].
  unfold known. rewrite TrxdBase.gen_versions. cbn [existsb]. rewrite orb_false_r.
  destruct ((v =? 0) || (v =? 1)) eqn:E2; [reflexivity|].
  unfold pick_hdr_ver. rewrite TrxdBase.gen_versions. cbn [rev app find]. replace (1 <=? v) with true by lia. reflexivity.
Qed.
Print Assumptions c05_setformat.

(* SETFH <hsn> <maio> <rx1> <tx1> ... : any number >= 1 of frequency pairs; -1 iff HSN outside 0..63; otherwise the hopping
   parameters are exactly those sent (kHz -> Hz), nothing truncated *)
Theorem c05_setfh_effect : forall w i t hsn maio ma draws, nth_error (w_trx w) i = Some t -> ma <> [] ->
  parse_cmd w i (v_SETFH :: py_str hsn :: py_str maio :: map py_str (flat_map (fun p => [fst p; snd p]) ma)) draws =
    if (hsn <? 0) || (63 <? hsn) then (w, CStatus (-1) [], draws)
    else (upd_trx w i (fun t => set_fh t (Some {| fh_hsn := hsn; fh_maio := maio; fh_ma := map (fun p => (fst p * 1000, snd p * 1000)) ma |})), CStatus 0 [], draws).
Proof.
  (* with the first pair spelled out the request visibly has its four arguments *)
  intros w i t hsn maio ma draws Et Hne. destruct ma as [|p ma]; [congruence|]. cbn [flat_map map app]. start_cmd t Et. eval_verb_tests. cbn [tl].
  change (py_str hsn :: py_str maio :: py_str (fst p) :: py_str (snd p) :: map py_str (flat_map (fun p => [fst p; snd p]) ma))
    with (map py_str (hsn :: maio :: flat_map (fun p => [fst p; snd p]) (p :: ma))).
  rewrite all_ints_str, pairs_scaled. destruct ((hsn <? 0) || (63 <? hsn)); reflexivity.
Qed.
Print Assumptions c05_setfh_effect.

Theorem c05_measure : forall w i t a draws, nth_error (w_trx w) i = Some t ->
  parse_cmd w i [v_MEASURE; py_str a] draws =
    if negb (c_pm (x_cfg t)) then (w, CStatus (-1) [], draws)
    else match randint (if pm_match (w_trx w) (a * 1000) then -75 else -120) (if pm_match (w_trx w) (a * 1000) then -50 else -105) draws with
         | Some (v, d') => (w, CStatus 0 [py_str v], d')
         | None => (w, CCrash, draws)
         end.
Proof.
  intros w i t a draws Et. start_cmd t Et. eval_verb_tests. destruct (negb (c_pm (x_cfg t))); [reflexivity|]. rewrite arg1.
  destruct (pm_match (w_trx w) (a * 1000)); reflexivity.
Qed.
Print Assumptions c05_measure.

Theorem c05_power_params : forall w i t a draws, nth_error (w_trx w) i = Some t ->
  parse_cmd w i [v_SETPOWER; py_str a] draws =
    (upd_trx w i (fun t0 => set_sim t0 (let s := x_sim t in sim_set s (s_muted s) (s_fake_rssi s) (s_txp s) a (s_toa s) (s_toa_thr s) (s_rssi s) (s_rssi_thr s) (s_ci s) (s_ci_thr s) (s_ta s) (s_drop s) (s_period s) (s_delay s))),
     CStatus 0 [], draws) /\
  parse_cmd w i [v_NOMTXPOWER] draws = (w, CStatus 0 [py_str (s_txp (x_sim t))], draws) /\
  parse_cmd w i [v_RFMUTE; py_str a] draws =
    (upd_trx w i (fun t0 => set_sim t0 (let s := x_sim t in sim_set s (0 <? a) (s_fake_rssi s) (s_txp s) (s_att s) (s_toa s) (s_toa_thr s) (s_rssi s) (s_rssi_thr s) (s_ci s) (s_ci_thr s) (s_ta s) (s_drop s) (s_period s) (s_delay s))),
     CStatus 0 [], draws).
Proof. intros w i t a draws Et. split; [|split]; start_cmd t Et; eval_verb_tests; rewrite ?arg1; reflexivity. Qed.
Print Assumptions c05_power_params.

(* simulation commands: SETTA, FAKE_TOA / FAKE_CI (absolute: negative threshold -> -1, nothing stored), FAKE_TOA relative, FAKE_RSSI (negative threshold disables) *)
Theorem c05_fake_commands : forall s a b,
  fake_handler s [v_SETTA; py_str a] =
    (sim_set s (s_muted s) (s_fake_rssi s) (s_txp s) (s_att s) (s_toa s) (s_toa_thr s) (s_rssi s) (s_rssi_thr s) (s_ci s) (s_ci_thr s) a (s_drop s) (s_period s) (s_delay s), Some (CStatus 0 [])) /\
  fake_handler s [v_FAKE_TOA; py_str a; py_str b] =
    (if b <? 0 then (s, Some (CStatus (-1) []))
     else (sim_set s (s_muted s) (s_fake_rssi s) (s_txp s) (s_att s) a b (s_rssi s) (s_rssi_thr s) (s_ci s) (s_ci_thr s) (s_ta s) (s_drop s) (s_period s) (s_delay s), Some (CStatus 0 []))) /\
  fake_handler s [v_FAKE_TOA; py_str a] =
    (sim_set s (s_muted s) (s_fake_rssi s) (s_txp s) (s_att s) (s_toa s + a) (s_toa_thr s) (s_rssi s) (s_rssi_thr s) (s_ci s) (s_ci_thr s) (s_ta s) (s_drop s) (s_period s) (s_delay s), Some (CStatus 0 [])) /\
  fake_handler s [v_FAKE_RSSI; py_str a; py_str b] =
    (if b <? 0 then (sim_set s (s_muted s) false (s_txp s) (s_att s) (s_toa s) (s_toa_thr s) (s_rssi s) (s_rssi_thr s) (s_ci s) (s_ci_thr s) (s_ta s) (s_drop s) (s_period s) (s_delay s), Some (CStatus 0 []))
     else (sim_set s (s_muted s) true (s_txp s) (s_att s) (s_toa s) (s_toa_thr s) a b (s_ci s) (s_ci_thr s) (s_ta s) (s_drop s) (s_period s) (s_delay s), Some (CStatus 0 []))) /\
  fake_handler s [v_FAKE_CI; py_str a; py_str b] =
    (if b <? 0 then (s, Some (CStatus (-1) []))
     else (sim_set s (s_muted s) (s_fake_rssi s) (s_txp s) (s_att s) (s_toa s) (s_toa_thr s) (s_rssi s) (s_rssi_thr s) a b (s_ta s) (s_drop s) (s_period s) (s_delay s), Some (CStatus 0 []))).
Proof. intros s a b. split; [|split; [|split; [|split]]]; unfold fake_handler; eval_verb_tests; rewrite ?arg2; destruct (b <? 0); rewrite ?arg1; reflexivity. Qed.
Print Assumptions c05_fake_commands.

(* unknown verbs and known verbs with another argument count: acknowledged with 0, no effect *)
Theorem c05_unknown : forall w i t req draws, nth_error (w_trx w) i = Some t ->
  (forall v n, verb_is req v n = false) -> (forall v n, verb_va req v n = false) -> parse_cmd w i req draws = (w, CStatus 0 [], draws).
Proof. intros w i t req draws Et H1 H2. apply (cmd_other w i t); auto. Qed.
Print Assumptions c05_unknown.

(* no command, whatever its tokens, crashes the handler or leaves the reachable region (thresholds >= 0, period > 0, HSN 0..63) *)
Theorem c05_parse_cmd_total : forall w i req draws, wf_world w -> (i < length (w_trx w))%nat ->
  let '(w', r, _) := parse_cmd w i req draws in wf_world w' /\ length (w_trx w') = length (w_trx w) /\ r <> CCrash.
Proof. exact parse_cmd_inv. Qed.
Print Assumptions c05_parse_cmd_total.

(* --- trxcon (trx_if.c) --- *)
(* whichever command trxcon has emitted, the toolkit's reply 'RSP <verb> <status>[ <anything>]' is matched by trxcon's parser - never a
   mismatch, never a crash - and decided by the status alone *)
Theorem c05_trxcon_accepts : forall c rc q crit text st tail,
  c_phyif_cmd c = CmdQ rc q -> In (crit, text) q ->
  -2147483648 <= st <= 2147483647 -> not_digit_head tail ->
  exists V, In V verbs /\ firstn (length V) (skipn 4 (cstr0 text)) = V /\
    ((length (TrxIf.s_RSP ++ V ++ [SP] ++ dec_d st ++ tail) <= 1023)%nat -> V <> TrxIf.v_MEASURE \/ st <> 0 ->
     accepted_or_rejected (c_ctrl_rsp (Some (crit, text)) (TrxIf.s_RSP ++ V ++ [SP] ++ dec_d st ++ tail)) crit st).
Proof. exact c_ctrl_accepts_wellformed. Qed.
Print Assumptions c05_trxcon_accepts.

(* the longest command trxcon can compose (SETFH, any hopping parameters) fits the toolkit's control receive size, so it is never cut *)
Theorem c05_setfh_fits : forall hsn maio ma rc q crit text,
  c_phyif_cmd (PSetFreqH1 hsn maio ma) = CmdQ rc q -> In (crit, text) q -> Z.of_nat (length text) + 1 <= ctrl_recv_size.
Proof. exact setfh_fits. Qed.
Print Assumptions c05_setfh_fits.

(* a refused command - negative status, whatever the verb and the arguments - changes nothing at all: not the addressed
   transceiver, not any other, not the pending random draws (checked on the implementation after every refused or ignored
   control datagram of every session: state digest before = state digest after) *)
Theorem c05_refused_no_effect : forall w i req draws w' rc ex d', (i < length (w_trx w))%nat ->
  parse_cmd w i req draws = (w', CStatus rc ex, d') -> rc < 0 -> w' = w /\ d' = draws.
Proof. intros w i req draws w' rc ex d' _ E Hrc. exact (error_reply_no_effect _ _ _ _ _ _ _ E Hrc). Qed.
Print Assumptions c05_refused_no_effect.

(* the SETFH command trxcon emits carries exactly the hopping list it was given - HSN, MAIO, then '<rx kHz> <tx kHz>' of EVERY channel
   in order - or trxcon returns an error and queues nothing (a channel without a frequency, or more text than the 999 characters of
   room in ma_buf[1000]: 63 channels of the DCS / PCS bands) *)
From OBB Require Import Proofs.TrxIfSetfhP.
Theorem c05_setfh_carries_exactly_the_list : forall hsn maio ma rc q,
  c_phyif_cmd (PSetFreqH1 hsn maio ma) = CmdQ rc q ->
  (rc = 0 -> ma <> [] /\ Forall freq_defined ma /\ Z.of_nat (length (setfh_pairs ma)) <= 999 /\
             q = [(true, c_ctrl_cmd v_SETFH (dec_u (u8 hsn) ++ [SP] ++ dec_u (u8 maio) ++ [SP] ++ removelast (setfh_pairs ma)))]) /\
  (rc <> 0 -> q = [] /\ (ma = [] \/ ~ Forall freq_defined ma \/ 999 < Z.of_nat (length (setfh_pairs ma)))).
Proof. exact setfh_carries_list. Qed.
Print Assumptions c05_setfh_carries_exactly_the_list.
