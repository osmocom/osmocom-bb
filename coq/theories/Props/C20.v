(* C20 - Mobile Allocation decoding selects exactly the flagged cell channels. Statements; the proofs apply lemmas of Proofs/.
   Model: Model/MobAlloc.v (gsm48_decode_mobile_alloc of layer23 sysinfo.c, checked array accesses).
   freq = the 1024-entry table of uint8_t masks, ma/len = the bitmap octets and their number, hop/hl = the caller's
   hopping[64] buffer and hopp_len before the call, si4 = the C flag (non-zero: maintain FREQ_TYPE_HOPP in the table).
   Specification side (all in Model/MobAlloc.v, literal numbers):
     serving freq a    := mask of ARFCN a has bit 0x01 (FREQ_TYPE_SERV)
     cell_alloc freq   := filter (serving freq) ([1; 2; ...; 1023] ++ [0])              ascending ARFCN, ARFCN 0 last
     ma_bit ma len i   := bit (i mod 8) of octet ma[len - 1 - i / 8]
     cut n bits        := the prefix of bits before the first element >= n
     spec_hopping freq ma len := [cell_alloc[i] | i <- cut |cell_alloc| [i <- 0 .. 8*len-1 | ma_bit ma len i]]
   Results: Ok rc state | OOB (access outside freq[1024], ma[], hopping[] or the local uint16_t f[64]).
   The callers (Model/MobAllocSi4.v), second half of this file:
     si4_tail d si1 s c  := the tail of gsm48_decode_sysinfo4 on the payload d (the octets after the 13-octet SI4 header, any length),
                            si1 = the flag s->si1, s = (freq, hopping, hopp_len) before, c = the CBCH channel description members before;
                            result SRet rc s' c' off left (return code, state after, where data / payload_len stand when the rest
                            octets are reached) | SOOB (some data[k], or some ma[k] of the decoder, lies behind the end of the message)
     render_ma lv ..     := the mobile-allocation branch of gsm48_rr_render_ma on the array mob_alloc_lv[9]
     octets l            := every element is in 0..255
     cd_ie pre           := pre = [] or pre = [100; a; b2; b3]   (the optional CBCH Channel Description IE, tag 0x64)
     cd_fields pre c     := c, or the members decoded from a, b2, b3 by 44.018 10.5.2.5
     114 = 0x72 is the tag of the CBCH Mobile Allocation IE, -5 = -EIO, 101 = 0x65 = GSM48_RR_CAUSE_NO_CELL_ALLOC_A.
   The SI4 / SI1 history (Model/MobAllocHist.v), third part of this file:
     cell                := (c_st = freq / hopping / hopp_len, c_cb = CBCH channel description, c_si1, c_si4 = the flags, c_buf = si4_msg[23])
     sysinfo4 msg x      := gsm48_decode_sysinfo4 on the whole message msg (13 fixed octets + payload, any length): memcpy of
                            min(len, 23) octets into si4_msg, then si4_tail; si4 := 1 on success;  CRet rc cell | COOB
     sysinfo1 freq1 x    := the tail of gsm48_decode_sysinfo1: table := freq1 (what decode_freq_list left), si1 := 1, and if si4 is set
                            sysinfo4 on the stored buffer with length 23, result ignored
     cell_ok x           := |c_buf x| = 23, octets, |freq| = 1024, |hopping| = 64.
   The assignment messages (Model/MobAllocAss.v), fourth part of this file:
     lv_copy limit slack tl lv0 := the guards and the memcpy 'message -> cd_now.mob_alloc_lv' of gsm48_rr.c; tl = the message from its
                            mob_alloc_len octet on, lv0 = the array before; ARefuse rc | ACopied array | AOOB (read behind the message /
                            write behind the array).  IMMEDIATE ASSIGNMENT: limit 8 slack 0, IMMEDIATE ASSIGNMENT EXTENDED (both
                            request references): limit 4 slack 0, FREQUENCY REDEFINITION: limit 8 slack 2
     imm_handler limit ours h tl .. := the two immediate-assignment handlers: guards, copy into the zeroed cd_now if the request
                            reference is ours, then gsm48_rr_dl_est -> gsm48_rr_render_ma (h = hopping channel description). *)
From Coq Require Import ZArith List Lia.
From OBB Require Import Base.Range Gen.MobAllocConst Gen.MobAllocSi4Const Model.MobAlloc Model.MobAllocSi4 Model.MobAllocHist Model.MobAllocAss Model.MobAllocCd Model.MobAllocBand Proofs.MobAllocP Proofs.MobAllocSi4P Proofs.MobAllocHistP Proofs.MobAllocAssP Proofs.MobAllocCdP Proofs.MobAllocBandP.
Import ListNotations.
Open Scope Z_scope.

(* the values the source currently has (Gen is regenerated from sysinfo.h / errno.h / gsm48_ie.h / the declaration of f in sysinfo.c on every run) *)
Theorem c20_constants :
  c_FREQ_TYPE_SERV = 1 /\ c_FREQ_TYPE_HOPP = 2 /\ c_FREQ_TABLE_SIZE = 1024 /\ c_HOPPING_SIZE = 64 /\ c_EINVAL = 22 /\ c_FREQ_ENTRY_SIZE = 1 /\ c_F_CAPACITY = 64.
Proof. exact constants. Qed.
Print Assumptions c20_constants.

(* the model's structural traversal of the table is the indexed loop  for (i = 1; i <= 1024; i++) ... freq[i & 1023] *)
Theorem c20_visit_order : forall freq, Zlength freq = 1024 ->
  visit freq = map (fun i => (Z.land i 1023, zn freq (Z.land i 1023))) (range 1 1025).
Proof. intros freq Hl. rewrite visit_eq by exact Hl. rewrite combine_map. unfold order. rewrite map_map. reflexivity. Qed.
Print Assumptions c20_visit_order.

(* for EVERY table (any subset of ARFCN 0..1023 as cell allocation, any size), every bitmap of 0..8 octets:
   return code 0, hopping[0 .. n-1] is exactly the specified list, the rest of the buffer is untouched, hopp_len = n *)
Theorem c20_spec : forall freq ma len hop hl si4,
  Zlength freq = 1024 -> 0 <= len <= 8 -> len <= Zlength ma -> Zlength hop = 64 ->
  exists freq', decode freq ma len hop hl si4 =
    Ok 0 (mkst freq' (spec_hopping freq ma len ++ skipn (length (spec_hopping freq ma len)) hop) (Zlength (spec_hopping freq ma len))).
Proof. intros freq ma len hop hl si4 Hf Hl Hm Hh. eexists. apply decode_spec; try assumption. rewrite Hh. apply Z.le_refl. Qed.
Print Assumptions c20_spec.

(* when no set bit points beyond the cell allocation nothing is cut: the list is the selected channels in bit order *)
Theorem c20_spec_no_cut : forall freq ma len,
  Forall (fun i => i < Zlength (cell_alloc freq)) (filter (ma_bit ma len) (range 0 (8 * len))) ->
  spec_hopping freq ma len = map (zn (cell_alloc freq)) (filter (ma_bit ma len) (range 0 (8 * len))).
Proof. intros freq ma len H. unfold spec_hopping. rewrite cut_all by exact H. reflexivity. Qed.
Print Assumptions c20_spec_no_cut.

(* never more than 64 entries, no duplicates, only channels of the cell allocation (hence valid ARFCNs) *)
Theorem c20_subset_bound : forall freq ma len hop hl si4 rc s,
  Zlength freq = 1024 -> 0 <= len <= 8 -> len <= Zlength ma -> Zlength hop = 64 ->
  decode freq ma len hop hl si4 = Ok rc s ->
  0 <= s_hlen s <= 64 /\ NoDup (firstn (Z.to_nat (s_hlen s)) (s_hop s)) /\
  forall x, In x (firstn (Z.to_nat (s_hlen s)) (s_hop s)) -> 0 <= x < 1024 /\ serving freq x = true.
Proof. intros freq ma len hop hl si4 rc s Hfl Hlen Hma Hhop E. rewrite decode_spec in E by (try assumption; lia). apply Ok_inj in E as [<- <-].
  cbn [s_hop s_hlen]. rewrite firstn_app_exact.
  destruct (spec_props freq ma len ltac:(lia)) as (P1 & P2 & P3). split; [pose proof (Zlength_nonneg (spec_hopping freq ma len)); lia|].
  split; [exact P2|]. intros x Hx. apply cell_alloc_In, P3, Hx. Qed.
Print Assumptions c20_subset_bound.

(* the table afterwards: untouched when si4 = 0; otherwise FREQ_TYPE_HOPP (0x02) is set exactly on the returned
   channels and cleared on every other entry, all other mask bits unchanged *)
Theorem c20_flags : forall freq ma len hop hl si4 rc s,
  Zlength freq = 1024 -> 0 <= len <= 8 -> len <= Zlength ma -> Zlength hop = 64 ->
  Forall (fun m => 0 <= m < 256) freq ->
  decode freq ma len hop hl si4 = Ok rc s ->
  Zlength (s_freq s) = 1024 /\
  forall a, 0 <= a < 1024 ->
    zn (s_freq s) a = if si4 =? 0 then zn freq a
                      else if has (spec_hopping freq ma len) a then Z.lor (zn freq a) 2 else Z.land (zn freq a) 253.
Proof. intros freq ma len hop hl si4 rc s Hfl Hlen Hma Hhop Hm E. rewrite decode_spec in E by (try assumption; lia). apply Ok_inj in E as [<- <-]. cbn [s_freq].
  destruct (si4 =? 0); [split; [exact Hfl|reflexivity]|]. split; [rewrite Zlength_map, Zlength_range; reflexivity|].
  intros a Ha. rewrite zn_map_range by exact Ha.
  assert (Hr : 0 <= zn freq a < 256). { rewrite Forall_forall in Hm. apply Hm, zn_In. lia. }
  rewrite set_clr_hopp_lit, clr_hopp_lit by exact Hr. reflexivity. Qed.
Print Assumptions c20_flags.

(* more than 8 octets (len is a uint8_t): -EINVAL, table, hopping[] and hopp_len untouched, no access at all *)
Theorem c20_long_rejected : forall freq ma len hop hl si4, 8 < len <= 255 ->
  decode freq ma len hop hl si4 = Ok (-22) (mkst freq hop hl).
Proof. intros freq ma len hop hl si4 H. apply decode_long, H. Qed.
Print Assumptions c20_long_rejected.

(* no bitmap of 0..255 octets makes the decoder read or write outside ma[len], freq[1024], hopping[64] or its local f[64]
   (len <= |ma| for the accepted lengths is the caller's obligation: the IE buffer holds len octets) *)
Theorem c20_in_bounds : forall freq ma len hop hl si4,
  Zlength freq = 1024 -> Zlength hop = 64 -> 0 <= len <= 255 -> (len <= 8 -> len <= Zlength ma) ->
  exists rc s, decode freq ma len hop hl si4 = Ok rc s.
Proof. intros freq ma len hop hl si4 Hf Hh Hl Hm. destruct (decode_total freq ma len hop hl si4 Hf Hh Hl Hm) as (rc & s & E & _).
  exists rc, s. exact E. Qed.
Print Assumptions c20_in_bounds.

(* a bitmap without set bits yields the empty list *)
Theorem c20_zero_bitmap : forall freq ma len hop hl si4,
  Zlength freq = 1024 -> 0 <= len <= 8 -> len <= Zlength ma -> Zlength hop = 64 -> Forall (fun b => b = 0) ma ->
  exists freq', decode freq ma len hop hl si4 = Ok 0 (mkst freq' hop 0).
Proof. intros freq ma len hop hl si4 Hf Hl Hm Hh Hz. eexists.
  rewrite decode_spec, spec_zero_bitmap by (try assumption; rewrite Hh; apply Z.le_refl). reflexivity. Qed.
Print Assumptions c20_zero_bitmap.

(* the empty bitmap (len = 0) yields the empty list for EVERY table: return 0, hopping[] untouched, hopp_len = 0,
   FREQ_TYPE_HOPP (0x02) cleared on every entry iff si4 *)
Theorem c20_empty : forall freq ma hop hl si4,
  Zlength freq = 1024 -> Zlength hop = 64 -> Forall (fun m => 0 <= m < 256) freq ->
  decode freq ma 0 hop hl si4 = Ok 0 (mkst (if si4 =? 0 then freq else map (fun m => Z.land m 253) freq) hop 0).
Proof. intros freq ma hop hl si4 Hf _ _. apply decode_len0, Hf. Qed.
Print Assumptions c20_empty.

(* ==================================================================== the callers of the decoder *)

(* the values the source currently has (Gen: errno.h EIO, gsm_04_08.h IE tags / sizeof of the SI4 header and of struct gsm48_chan_desc /
   RR cause, gsm48_rr.h bound of mob_alloc_lv, all as compiled) *)
Theorem c20_si4_constants :
  c_EIO = 5 /\ c_IE_CBCH_CHAN_DESC = 100 /\ c_IE_CBCH_MOB_AL = 114 /\ c_SI4_HDR_SIZE = 13 /\ c_CHAN_DESC_SIZE = 3 /\
  c_MOB_ALLOC_LV_SIZE = 9 /\ c_CAUSE_NO_CELL_ALLOC_A = 101.
Proof. repeat split; reflexivity. Qed.
Print Assumptions c20_si4_constants.

(* for EVERY SI4 payload (any length, any octets), with or without SI1: no read behind the end of the message, neither by the SI4
   code nor by the decoder it calls (the caller contract 'len <= octets present' of c20_in_bounds is discharged here: no such
   hypothesis), no access outside freq[1024] / hopping[64]; the position reached stays inside the message; the return code is 0 or
   -EIO, and with -EIO the table, hopping[] and hopp_len are exactly as before *)
Theorem c20_si4_in_bounds : forall d si1 s c,
  octets d -> Zlength (s_freq s) = 1024 -> Zlength (s_hop s) = 64 ->
  exists rc s' c' off left, si4_tail d si1 s c = SRet rc s' c' off left /\ 0 <= off /\ 0 <= left /\ off + left = Zlength d /\
    (rc = 0 \/ (rc = -5 /\ s' = s)).
Proof. intros d si1 s c Ho Hf Hh. destruct (si4_ok d si1 s c Ho Hf Hh) as (c' & rc & s' & off & lft & E & H1 & H2 & H3 & H4 & _).
  exists rc, s', c', off, lft. auto. Qed.
Print Assumptions c20_si4_in_bounds.

(* a message that ends anywhere inside the CBCH Mobile Allocation IE (length octet l present, fewer than l value octets): -EIO,
   table / hopping[] / hopp_len untouched, whatever SI1 *)
Theorem c20_si4_cut_in_ie : forall pre l v' si1 s c,
  cd_ie pre -> octets pre -> 0 <= l < 256 -> Zlength v' < l ->
  si4_tail (pre ++ 114 :: l :: v') si1 s c = SRet (-5) s (cd_fields pre c) (Zlength pre) (2 + Zlength v').
Proof. exact si4_cut. Qed.
Print Assumptions c20_si4_cut_in_ie.

(* ... or directly behind its tag (the length octet is not read) *)
Theorem c20_si4_cut_after_tag : forall pre si1 s c,
  cd_ie pre -> octets pre ->
  si4_tail (pre ++ [114]) si1 s c = SRet (-5) s (cd_fields pre c) (Zlength pre) 1.
Proof. exact si4_cut_tag. Qed.
Print Assumptions c20_si4_cut_after_tag.

(* ... or inside the CBCH Channel Description IE (1..3 of its 4 octets): -EIO, nothing stored at all *)
Theorem c20_si4_cut_in_chan_desc : forall x si1 s c,
  hd 0 x = 100 -> 1 <= Zlength x < 4 ->
  si4_tail x si1 s c = SRet (-5) s c 0 (Zlength x).
Proof. exact si4_cut_cd. Qed.
Print Assumptions c20_si4_cut_in_chan_desc.

(* a complete IE after SI1: return 0, the state stored is EXACTLY what the decoder yields on the l value octets v of the IE (with
   si4 = 1), whatever follows (tail = rest octets); 2 + l octets consumed (+ 4 with the channel description) *)
Theorem c20_si4_accept : forall pre l v tail si1 s c,
  cd_ie pre -> octets pre -> 0 <= l < 256 -> Zlength v = l -> si1 <> 0 ->
  Zlength (s_freq s) = 1024 -> Zlength (s_hop s) = 64 ->
  exists rc s', decode (s_freq s) v l (s_hop s) (s_hlen s) 1 = Ok rc s' /\
    si4_tail (pre ++ 114 :: l :: v ++ tail) si1 s c = SRet 0 s' (cd_fields pre c) (Zlength pre + 2 + l) (Zlength tail).
Proof. intros pre l v tail si1 s c Hp Ho Hl Hv H1 Hf Hh. rewrite si4_complete, (proj2 (Z.eqb_neq si1 0) H1) by assumption.
  destruct (decode_total (s_freq s) v l (s_hop s) (s_hlen s) 1 Hf Hh ltac:(lia) ltac:(lia)) as (rc & s' & E & _).
  rewrite E. exists rc, s'. split; reflexivity. Qed.
Print Assumptions c20_si4_accept.

(* hence, for 0..8 bitmap octets, what SI4 stores is the specified list (c20_spec through the caller) *)
Theorem c20_si4_spec : forall pre l v tail si1 s c,
  cd_ie pre -> octets pre -> 0 <= l <= 8 -> Zlength v = l -> si1 <> 0 ->
  Zlength (s_freq s) = 1024 -> Zlength (s_hop s) = 64 ->
  exists freq', si4_tail (pre ++ 114 :: l :: v ++ tail) si1 s c =
    SRet 0 (mkst freq' (spec_hopping (s_freq s) v l ++ skipn (length (spec_hopping (s_freq s) v l)) (s_hop s))
                 (Zlength (spec_hopping (s_freq s) v l)))
         (cd_fields pre c) (Zlength pre + 2 + l) (Zlength tail).
Proof. intros pre l v tail si1 s c Hp Ho Hl Hv H1 Hf Hh. rewrite si4_complete, (proj2 (Z.eqb_neq si1 0) H1) by (try assumption; lia).
  rewrite decode_spec by lia. eexists. reflexivity. Qed.
Print Assumptions c20_si4_spec.

(* a complete IE of 9..255 octets: the decoder refuses (-EINVAL), gsm48_decode_sysinfo4 ignores the refusal and returns 0;
   table / hopping[] / hopp_len untouched, the IE is skipped *)
Theorem c20_si4_long_ignored : forall pre l v tail si1 s c,
  cd_ie pre -> octets pre -> 8 < l < 256 -> Zlength v = l ->
  si4_tail (pre ++ 114 :: l :: v ++ tail) si1 s c = SRet 0 s (cd_fields pre c) (Zlength pre + 2 + l) (Zlength tail).
Proof. intros pre l v tail si1 s c Hp Ho Hl Hv. rewrite si4_complete by (try assumption; lia). destruct (si1 =? 0); [reflexivity|].
  rewrite decode_long by lia. destruct s; reflexivity. Qed.
Print Assumptions c20_si4_long_ignored.

(* before SI1 (s->si1 = 0) a complete IE is skipped: table / hopping[] / hopp_len untouched, 2 + l octets consumed *)
Theorem c20_si4_before_si1 : forall pre l v tail s c,
  cd_ie pre -> octets pre -> 0 <= l < 256 -> Zlength v = l ->
  si4_tail (pre ++ 114 :: l :: v ++ tail) 0 s c = SRet 0 s (cd_fields pre c) (Zlength pre + 2 + l) (Zlength tail).
Proof. exact si4_before_si1. Qed.
Print Assumptions c20_si4_before_si1.

(* no CBCH Mobile Allocation IE (the octet after the optional channel description is not 0x72): nothing consumed, nothing changed *)
Theorem c20_si4_no_ma_ie : forall pre rest si1 s c,
  cd_ie pre -> octets pre -> (pre = [] -> hd 0 rest <> 100) -> hd 0 rest <> 114 ->
  si4_tail (pre ++ rest) si1 s c = SRet 0 s (cd_fields pre c) (Zlength pre) (Zlength rest).
Proof. exact si4_no_ma. Qed.
Print Assumptions c20_si4_no_ma_ie.

(* the assignment path (gsm48_rr_render_ma): mob_alloc_lv has 9 octets, so for EVERY content (any length octet 0..255) neither the
   caller nor the decoder leaves the array, the table or ma[64] *)
Theorem c20_render_in_bounds : forall lv freq ma ma_len,
  Zlength lv = 9 -> octets lv -> Zlength freq = 1024 -> Zlength ma = 64 ->
  exists rc s, render_ma lv freq ma ma_len = Ok rc s.
Proof. exact render_safe. Qed.
Print Assumptions c20_render_in_bounds.

(* ... for 1..8 bitmap octets ma[] / ma_len receive the specified list; an empty list is answered with cause 0x65 *)
Theorem c20_render_spec : forall l v freq ma ma_len,
  1 <= l <= 8 -> l <= Zlength v -> Zlength freq = 1024 -> Zlength ma = 64 ->
  exists freq', render_ma (l :: v) freq ma ma_len =
    Ok (if Zlength (spec_hopping freq v l) <? 1 then 101 else 0)
       (mkst freq' (spec_hopping freq v l ++ skipn (length (spec_hopping freq v l)) ma) (Zlength (spec_hopping freq v l))).
Proof. intros l v freq ma ma_len Hl Hv Hf Hm. eexists. apply render_exact; assumption. Qed.
Print Assumptions c20_render_spec.

(* ... a length octet of 9..255 (kept out of mob_alloc_lv by the IE parsers of gsm48_rr.c, which are not modelled): the decoder
   refuses and writes nothing, its return code is ignored, and the verdict is taken from the caller's previous ma_len *)
Theorem c20_render_long_stale : forall l v freq ma ma_len, 8 < l < 256 ->
  render_ma (l :: v) freq ma ma_len = Ok (if ma_len <? 1 then 101 else 0) (mkst freq ma ma_len).
Proof. exact render_long. Qed.
Print Assumptions c20_render_long_stale.

(* ==================================================================== SI4 stored, re-decoded when SI1 arrives *)

Theorem c20_hist_constants : c_SI4_MSG_SIZE = 23 /\ c_SI4_HDR_SIZE = 13.
Proof. repeat split; reflexivity. Qed.
Print Assumptions c20_hist_constants.

(* one SI4 of ANY length >= 13 (also longer than si4_msg) into any cell: no access outside the message, si4_msg, the tables; the
   buffer afterwards holds the first min(len, 23) octets of the message followed by the octets that were there before; -EIO leaves
   list / hopp_len / flags and the si4 flag as they were *)
Theorem c20_hist_si4_in_bounds : forall msg x,
  octets msg -> 13 <= Zlength msg -> cell_ok x ->
  exists rc x', sysinfo4 msg x = CRet rc x' /\ cell_ok x' /\ c_si1 x' = c_si1 x /\
    c_buf x' = firstn (Z.to_nat (Z.min (Zlength msg) 23)) msg ++ skipn (Z.to_nat (Z.min (Zlength msg) 23)) (c_buf x) /\
    ((rc = 0 /\ c_si4 x' = 1) \/ (rc = -5 /\ c_st x' = c_st x /\ c_si4 x' = c_si4 x)).
Proof. exact sysinfo4_safe. Qed.
Print Assumptions c20_hist_si4_in_bounds.

(* SI1 into a cell with ANY buffer content: the re-decode of the stored SI4 reads only si4_msg[0..22] (and the decoder only inside
   that), returns 0, leaves the buffer as it is *)
Theorem c20_hist_si1_in_bounds : forall freq1 x,
  cell_ok x -> Zlength freq1 = 1024 ->
  exists x', sysinfo1 freq1 x = CRet 0 x' /\ cell_ok x' /\ c_si1 x' = 1 /\ c_buf x' = c_buf x.
Proof. exact sysinfo1_safe. Qed.
Print Assumptions c20_hist_si1_in_bounds.

(* what the re-decode is: the SI4 tail on the ten octets si4_msg[13..22] with si1 = 1 and the new table; its return code is dropped *)
Theorem c20_hist_si1_redecode : forall freq1 x,
  Zlength (c_buf x) = 23 -> c_si4 x <> 0 ->
  sysinfo1 freq1 x =
    match si4_tail (skipn 13 (c_buf x)) 1 (mkst freq1 (s_hop (c_st x)) (s_hlen (c_st x))) (c_cb x) with
    | SOOB => COOB
    | SRet rc s c _ _ => CRet 0 (mkcell s c 1 (if rc =? 0 then 1 else c_si4 x) (c_buf x))
    end.
Proof. exact sysinfo1_redecode. Qed.
Print Assumptions c20_hist_si1_redecode.

(* ORDER INDEPENDENCE.  A cell that has seen neither SI1 nor SI4 (any buffer content, any previous list); an SI4 message of any
   length whose CBCH Mobile Allocation IE is complete and ends within the first 23 octets (hdr = the 13 fixed octets, pre = the
   optional channel description, tail = anything); SI1 brings the table freq1.  Then 'SI4, SI1' and 'SI1, SI4' end in the SAME cell xe:
   list / hopp_len / flags are exactly the decoder's result s' on the IE value octets v with the table of SI1 *)
Theorem c20_hist_order_independent : forall hdr pre l v tail x0 freq1,
  Zlength hdr = 13 -> octets (hdr ++ pre ++ 114 :: l :: v ++ tail) -> cd_ie pre -> Zlength v = l ->
  Zlength (hdr ++ pre ++ 114 :: l :: v) <= 23 ->
  cell_ok x0 -> c_si1 x0 = 0 -> c_si4 x0 = 0 -> Zlength freq1 = 1024 ->
  exists rc s' x1 x1',
    decode freq1 v l (s_hop (c_st x0)) (s_hlen (c_st x0)) 1 = Ok rc s' /\
    let msg := hdr ++ pre ++ 114 :: l :: v ++ tail in
    let n := Z.to_nat (Z.min (Zlength msg) 23) in
    let xe := mkcell s' (cd_fields pre (c_cb x0)) 1 1 (firstn n msg ++ skipn n (c_buf x0)) in
    sysinfo4 msg x0 = CRet 0 x1 /\ c_st x1 = c_st x0 /\ sysinfo1 freq1 x1 = CRet 0 xe /\
    sysinfo1 freq1 x0 = CRet 0 x1' /\ sysinfo4 msg x1' = CRet 0 xe.
Proof. exact order_independent. Qed.
Print Assumptions c20_hist_order_independent.

(* ... for 0..8 bitmap octets that common result is the specified list *)
Theorem c20_hist_order_spec : forall hdr pre l v tail x0 freq1,
  Zlength hdr = 13 -> octets (hdr ++ pre ++ 114 :: l :: v ++ tail) -> cd_ie pre -> Zlength v = l -> l <= 8 ->
  Zlength (hdr ++ pre ++ 114 :: l :: v) <= 23 ->
  cell_ok x0 -> c_si1 x0 = 0 -> c_si4 x0 = 0 -> Zlength freq1 = 1024 ->
  exists freq' xe x1 x1',
    let msg := hdr ++ pre ++ 114 :: l :: v ++ tail in
    let sel := spec_hopping freq1 v l in
    c_st xe = mkst freq' (sel ++ skipn (length sel) (s_hop (c_st x0))) (Zlength sel) /\
    sysinfo4 msg x0 = CRet 0 x1 /\ sysinfo1 freq1 x1 = CRet 0 xe /\
    sysinfo1 freq1 x0 = CRet 0 x1' /\ sysinfo4 msg x1' = CRet 0 xe.
Proof. intros hdr pre l v tail x0 freq1 Hh13 Hoct Hpre Hv Hl8 Hlen Hok H1 H4 Hf1.
  destruct (order_independent hdr pre l v tail x0 freq1 Hh13 Hoct Hpre Hv Hlen Hok H1 H4 Hf1) as (rc & s' & x1 & x1' & Ed & EA & _ & EA2 & EB & EB2).
  destruct Hok as (_ & _ & _ & Hh). pose proof (Zlength_nonneg v) as Hv0.
  rewrite decode_spec in Ed by lia. apply Ok_inj in Ed as [_ <-]. eexists _, _, x1, x1'. cbv zeta.
  split; [|split; [exact EA|split; [exact EA2|split; [exact EB|exact EB2]]]]. reflexivity. Qed.
Print Assumptions c20_hist_order_spec.

(* the bound 'IE within the first 23 octets' is needed: a 25-octet message (channel description + a 6-octet Mobile Allocation that
   ends at octet 25) is cut by the memcpy; 'SI4, SI1' leaves the list empty (the re-decode finds the IE cut, -EIO dropped),
   'SI1, SI4' builds 10 20 0.  (BCCH blocks have 23 octets; gsm48_rr.c does not check that, grr.c does.)
   hobs = [rc; si1; si4; hopp_len; hopping[0..3]] *)
Theorem c20_hist_order_long_refuted :
  Zlength msg25 = 25 /\
  hobs (after (sysinfo4 msg25 (x00 (repeat 0 23))) (sysinfo1 T1)) = [0; 1; 1; 0; 7; 7; 7; 7] /\
  hobs (after (sysinfo1 T1 (x00 (repeat 0 23))) (sysinfo4 msg25)) = [0; 1; 1; 3; 10; 20; 0; 7].
Proof. exact order_long_refuted. Qed.
Print Assumptions c20_hist_order_long_refuted.

(* and a message WITHOUT the IE that is shorter than the buffer is not order independent either: the re-decode runs over the old
   octets behind it; here a 13-octet SI4 into a buffer that still holds '72 01 0b' at octets 13..15 makes 'SI4, SI1' build 10 20 0
   from the old octets, while 'SI1, SI4' leaves the list empty *)
Theorem c20_hist_short_stale_refuted :
  Zlength hdr0 = 13 /\ cell_ok (x00 stale_buf) /\
  hobs (after (sysinfo4 hdr0 (x00 stale_buf)) (sysinfo1 T1)) = [0; 1; 1; 3; 10; 20; 0; 7] /\
  hobs (after (sysinfo1 T1 (x00 stale_buf)) (sysinfo4 hdr0)) = [0; 1; 1; 0; 7; 7; 7; 7].
Proof. exact short_stale_refuted. Qed.
Print Assumptions c20_hist_short_stale_refuted.

(* ==================================================================== message -> cd_now.mob_alloc_lv -> list given to L1 *)

(* a message whose length octet l passes the guards (l <= limit, l value octets present, slack more octets where the handler
   demands them): the array holds the length octet and exactly the l value octets of the MESSAGE, the octets behind keep their
   value - nothing lost, nothing else written.  Instances: IMMEDIATE ASSIGNMENT (limit 8, slack 0), IMMEDIATE ASSIGNMENT EXTENDED
   request reference 1 and 2 (limit 4, slack 0), FREQUENCY REDEFINITION (limit 8, slack 2) *)
Theorem c20_assign_copy_exact : forall limit slack l v rest lv0,
  Zlength v = l -> l <= limit -> 0 <= slack <= Zlength rest -> l + 1 <= Zlength lv0 ->
  lv_copy limit slack (l :: v ++ rest) lv0 = ACopied (l :: v ++ skipn (Z.to_nat (l + 1)) lv0).
Proof. exact lv_copy_ok. Qed.
Print Assumptions c20_assign_copy_exact.

(* for EVERY message tail and every limit <= 8: refused with -EINVAL, or copied inside the message and inside the 9-octet array,
   with the stored length octet <= limit.  (The guards of the pinned handlers have limit 8 / 4 / 8: no overrun.) *)
Theorem c20_assign_copy_in_bounds : forall limit slack tl lv0,
  octets tl -> octets lv0 -> Zlength lv0 = 9 -> limit <= 8 -> 0 <= slack ->
  lv_copy limit slack tl lv0 = ARefuse (-22) \/
  exists lv, lv_copy limit slack tl lv0 = ACopied lv /\ Zlength lv = 9 /\ octets lv /\ 0 <= zn lv 0 <= limit /\ zn lv 0 = zn tl 0.
Proof. exact lv_copy_safe. Qed.
Print Assumptions c20_assign_copy_in_bounds.

(* the refusals: a length octet above the limit; fewer octets behind it than it announces (+ slack); no length octet at all *)
Theorem c20_assign_too_large : forall limit slack tl lv0 l, rd tl 0 = Some l -> limit < l -> lv_copy limit slack tl lv0 = ARefuse (-22).
Proof. exact lv_copy_too_large. Qed.
Print Assumptions c20_assign_too_large.
Theorem c20_assign_short : forall limit slack l v' lv0, Zlength v' < l + slack -> lv_copy limit slack (l :: v') lv0 = ARefuse (-22).
Proof. exact lv_copy_short. Qed.
Print Assumptions c20_assign_short.

(* IMMEDIATE ASSIGNMENT (limit 8) / IMMEDIATE ASSIGNMENT EXTENDED (limit 4), our request reference, hopping channel, 1..limit
   bitmap octets: cd_now.mob_alloc_lv = length octet, the value octets of the message, zeros; and the list handed to L1 by
   gsm48_rr_render_ma is exactly the specified one for the bitmap v IN THE MESSAGE (cause 0x65 if it is empty) *)
Theorem c20_assign_imm_spec : forall limit ours l v rest freq ma ma_len,
  (limit = 8 \/ limit = 4) -> ours <> 0 -> Zlength v = l -> 1 <= l <= limit -> Zlength freq = 1024 -> Zlength ma = 64 ->
  exists freq', imm_handler limit ours 1 (l :: v ++ rest) freq ma ma_len =
    AsEst (l :: v ++ map (fun _ => 0) (range 0 (8 - l)))
          (Ok (if Zlength (spec_hopping freq v l) <? 1 then 101 else 0)
              (mkst freq' (spec_hopping freq v l ++ skipn (length (spec_hopping freq v l)) ma) (Zlength (spec_hopping freq v l)))).
Proof. intros limit ours l v rest freq ma ma_len Hlim Ho Hv Hl Hf Hm. eexists. apply imm_spec; assumption. Qed.
Print Assumptions c20_assign_imm_spec.

(* ... and for EVERY message tail: refused, not ours, or established without leaving the message, the array, the table or ma[64] *)
Theorem c20_assign_imm_in_bounds : forall limit ours h tl freq ma ma_len,
  (limit = 8 \/ limit = 4) -> octets tl -> Zlength freq = 1024 -> Zlength ma = 64 ->
  imm_handler limit ours h tl freq ma ma_len = AsRefused (-22) \/ imm_handler limit ours h tl freq ma ma_len = AsNotOurs \/
  exists lv rc s, imm_handler limit ours h tl freq ma ma_len = AsEst lv (Ok rc s) /\ Zlength lv = 9 /\ zn lv 0 <= limit.
Proof. exact imm_safe. Qed.
Print Assumptions c20_assign_imm_in_bounds.

(* ==================================================================== gsm48_rr_render_ma with the Cell Channel Description *)
(* render_ma_cd lv cdlv other freq ma ma_len (Model/MobAllocCd.v) := the mobile-allocation branch with cd->cell_desc_lv (cdlv, 17 octets:
   length + 16).  gsm48_decode_freq_list (vendored gsm48_ie.c) first CLEARS FREQ_TYPE_SERV (0x01) on all 1024 entries and then sets it
   on the listed ARFCNs - the table is s->freq itself, so the cell allocation in force afterwards is the description's, not a union.
     bm0_table freq cd := the table after the call for the bit map 0 format (first octet < 0x40 for mask 0xce)
     bm0_has cd a      := 1 <= a <= 124 and bit ((a-1) mod 8) of octet cd[15 - (a-1)/8] is set          (44.018 10.5.2.1b)
     other_table freq other := the table after the call for the other formats, 'other' = the ARFCNs the real decoder flags (an
                          explicit argument: the range / variable bit map decoders are not modelled)
   1 = GSM48_RR_CAUSE_ABNORMAL_UNSPEC as compiled from the vendored gsm_04_08.h. *)

Theorem c20_render_cd_constants : c_CAUSE_ABNORMAL_UNSPEC = 1 /\ c_CELL_DESC_LV_SIZE = 17 /\ c_CAUSE_NO_CELL_ALLOC_A = 101 /\ c_FREQ_TYPE_SERV = 1.
Proof. repeat split; reflexivity. Qed.
Print Assumptions c20_render_cd_constants.

(* length octet 0: no description - exactly the branch without it (c20_render_spec etc. apply), the table is not touched *)
Theorem c20_render_cd_absent : forall lv x other freq ma ma_len,
  render_ma_cd lv (0 :: x) other freq ma ma_len = render_ma lv freq ma ma_len.
Proof. exact render_cd_absent. Qed.
Print Assumptions c20_render_cd_absent.

(* any length other than 0 and 16: cause 1 (abnormal), ma[] / ma_len / the table untouched *)
Theorem c20_render_cd_wrong_length : forall l v cl x other freq ma ma_len, l <> 0 -> cl <> 0 -> cl <> 16 ->
  render_ma_cd (l :: v) (cl :: x) other freq ma ma_len = Ok 1 (mkst freq ma ma_len).
Proof. exact render_cd_wrong_len. Qed.
Print Assumptions c20_render_cd_wrong_length.

(* length 16, bit map 0 format: the table in force becomes bm0_table freq cd and the list handed to L1 is spec_hopping of THAT table *)
Theorem c20_render_cd_bitmap0 : forall l v cd other freq ma ma_len,
  1 <= l <= 8 -> l <= Zlength v -> Zlength cd = 16 -> 0 <= zn cd 0 < 64 -> Zlength freq = 1024 -> Zlength ma = 64 ->
  render_ma_cd (l :: v) (16 :: cd) other freq ma ma_len =
    Ok (if Zlength (spec_hopping (bm0_table freq cd) v l) <? 1 then 101 else 0)
       (mkst (bm0_table freq cd)
             (spec_hopping (bm0_table freq cd) v l ++ skipn (length (spec_hopping (bm0_table freq cd) v l)) ma)
             (Zlength (spec_hopping (bm0_table freq cd) v l))).
Proof. intros l v cd other freq ma ma_len Hl Hv Hc Hb Hf Hm.
  rewrite (render_cd_16 l v cd other freq ma ma_len (bm0_table freq cd)) by (try apply freq_list16_bm0; assumption || lia).
  apply render_exact; try assumption. apply bm0_table_length, Hf. Qed.
Print Assumptions c20_render_cd_bitmap0.

(* which table that is: its cell allocation is exactly the description's set (whatever SI1 had flagged is cleared) ... *)
Theorem c20_render_cd_allocation_in_force : forall freq cd a, Zlength freq = 1024 -> 0 <= a < 1024 ->
  serving (bm0_table freq cd) a = bm0_has cd a.
Proof. exact bm0_serving. Qed.
Print Assumptions c20_render_cd_allocation_in_force.

(* ... and every other mask bit is as before *)
Theorem c20_render_cd_masks : forall freq cd a, Zlength freq = 1024 -> 0 <= a < 1024 -> 0 <= zn freq a < 256 ->
  zn (bm0_table freq cd) a = if bm0_has cd a then Z.lor (Z.land (zn freq a) 254) 1 else Z.land (zn freq a) 254.
Proof. intros freq cd a Hl Ha _. apply bm0_masks; assumption. Qed.
Print Assumptions c20_render_cd_masks.

(* length 16, another format (first octet >= 0x40): the same with the table the real decoder leaves, given by the ARFCNs it flags *)
Theorem c20_render_cd_other_format : forall l v cd other freq ma ma_len,
  1 <= l <= 8 -> l <= Zlength v -> 1 <= Zlength cd -> 64 <= zn cd 0 < 256 -> Zlength freq = 1024 -> Zlength ma = 64 ->
  render_ma_cd (l :: v) (16 :: cd) other freq ma ma_len =
    Ok (if Zlength (spec_hopping (other_table freq other) v l) <? 1 then 101 else 0)
       (mkst (other_table freq other)
             (spec_hopping (other_table freq other) v l ++ skipn (length (spec_hopping (other_table freq other) v l)) ma)
             (Zlength (spec_hopping (other_table freq other) v l))).
Proof. intros l v cd other freq ma ma_len Hl Hv Hc Hb Hf Hm.
  rewrite (render_cd_16 l v cd other freq ma ma_len (other_table freq other)) by (try apply freq_list16_other; assumption || lia).
  apply render_exact; try assumption. apply other_table_length, Hf. Qed.
Print Assumptions c20_render_cd_other_format.

(* in bounds for EVERY content of mob_alloc_lv[9] and cell_desc_lv[17] *)
Theorem c20_render_cd_in_bounds : forall lv cdlv other freq ma ma_len,
  Zlength lv = 9 -> Zlength cdlv = 17 -> octets lv -> octets cdlv -> Zlength freq = 1024 -> Zlength ma = 64 ->
  exists rc s, render_ma_cd lv cdlv other freq ma ma_len = Ok rc s.
Proof. exact render_cd_safe. Qed.
Print Assumptions c20_render_cd_in_bounds.

(* ==================================================================== the final loop of gsm48_rr_render_ma: band conversion, support check *)
(* render_full pcs fm lv cdlv other freq ma ma_len (Model/MobAllocBand.v) := render_ma_cd, then, if that returned 0, the loop over
   ma[0 .. ma_len-1]; pcs = gsm_refer_pcs(cs->arfcn, s) (the serving cell refers to PCS 1900), fm = set->freq_map (166 octets).
     conv pcs a      := a + 32768 (ARFCN_PCS = 0x8000) if pcs and 512 <= a <= 810, else a
     bidx pcs a      := a - 512 + 1024 if pcs and 512 <= a <= 810, else a                       (arfcn2index of the converted value)
     supported fm pcs a := bit (bidx mod 8) of fm[bidx / 8] is set
     loop_spec fm pcs l := (0, all of l converted) if every channel is supported, else (8, l converted up to and including the first
                           unsupported channel, the rest as decoded)      -- 8 = GSM48_RR_CAUSE_FREQ_NOT_IMPL as compiled *)

Theorem c20_render_band_constants : c_ARFCN_PCS = 32768 /\ c_ARFCN_FLAG_MASK = 61440 /\ c_CAUSE_FREQ_NOT_IMPL = 8 /\ c_FREQ_MAP_SIZE = 166.
Proof. repeat split; reflexivity. Qed.
Print Assumptions c20_render_band_constants.

(* for EVERY decoded list sel (channel numbers 0..1023, any length that the branch left in ma_len), every freq_map and both kinds of
   serving cell: no access outside ma[] / freq_map[]; the function returns 0 iff every channel is supported per the rule above, else 8;
   ma_len is unchanged and the octets of ma[] behind the list are untouched *)
Theorem c20_render_band_loop : forall pcs fm lv cdlv other freq ma ma_len fr sel rest,
  Zlength fm = 166 -> Forall (fun a => 0 <= a < 1024) sel ->
  render_ma_cd lv cdlv other freq ma ma_len = Ok 0 (mkst fr (sel ++ rest) (Zlength sel)) ->
  render_full pcs fm lv cdlv other freq ma ma_len =
    Ok (if forallb (supported fm pcs) sel then 0 else 8) (mkst fr (snd (loop_spec fm pcs sel) ++ rest) (Zlength sel)).
Proof. exact render_full_loop. Qed.
Print Assumptions c20_render_band_loop.

(* the channel NUMBERS (low 10 bits) handed to L1 are exactly the decoded list - nothing added, dropped, reordered or renumbered,
   whether or not the function refuses *)
Theorem c20_render_band_numbers : forall fm pcs sel, Forall (fun a => 0 <= a < 1024) sel ->
  map (fun x => Z.land x 1023) (snd (loop_spec fm pcs sel)) = sel.
Proof. exact loop_numbers. Qed.
Print Assumptions c20_render_band_numbers.

(* accepted: every entry is the converted channel; an entry carries ARFCN_PCS (bit 15) iff the cell is PCS and 512 <= arfcn <= 810 *)
Theorem c20_render_band_accepted : forall fm pcs sel, forallb (supported fm pcs) sel = true ->
  snd (loop_spec fm pcs sel) = map (conv pcs) sel.
Proof. exact loop_all. Qed.
Print Assumptions c20_render_band_accepted.
Theorem c20_render_band_pcs_flag : forall pcs a, 0 <= a < 1024 ->
  Z.testbit (conv pcs a) 15 = andb pcs (andb (512 <=? a) (a <=? 810)).
Proof. exact conv_bit15. Qed.
Print Assumptions c20_render_band_pcs_flag.

(* an error of the decode branch (0x65 empty list, 1 abnormal) is returned as it is, the loop does not run *)
Theorem c20_render_band_pass_through : forall pcs fm lv cdlv other freq ma ma_len rc s, rc <> 0 ->
  render_ma_cd lv cdlv other freq ma ma_len = Ok rc s -> render_full pcs fm lv cdlv other freq ma ma_len = Ok rc s.
Proof. exact render_full_pass. Qed.
Print Assumptions c20_render_band_pass_through.

From OBB Require Import Gen.TrxIfConst Model.Trxd Model.TrxIf Proofs.TrxIfSetfhP.
(* ---- the consumer at the far end: trxcon's SETFH composer (trx_if_cmd_setfh in trx_if.c, model Model/TrxIf.v) ----
   setfh_pair a = "<downlink kHz> <uplink kHz> " of ARFCN a (gsm_arfcn2freq10 * 100), setfh_pairs = the concatenation over the list.
   Given the hopping list (whatever its length and content) the composer either queues exactly ONE command
   'CMD SETFH <hsn> <maio> <pairs of EVERY channel of the list, in order>' (only the trailing space cut) - possible only when every
   channel has a frequency and the pairs fit the 999 characters of room in ma_buf[1000] - or it returns an error and queues
   NOTHING: no truncated list, no list with a channel dropped or added, no write beyond the buffer.  (62 channels of the DCS band
   fit, 63 are refused with -ENOSPC: Example setfh_dcs_62_63.) *)
Theorem c20_setfh_carries_exactly_the_list : forall hsn maio ma rc q,
  c_phyif_cmd (PSetFreqH1 hsn maio ma) = CmdQ rc q ->
  (rc = 0 -> ma <> [] /\ Forall freq_defined ma /\ Z.of_nat (length (setfh_pairs ma)) <= 999 /\
             q = [(true, c_ctrl_cmd v_SETFH (dec_u (u8 hsn) ++ [SP] ++ dec_u (u8 maio) ++ [SP] ++ removelast (setfh_pairs ma)))]) /\
  (rc <> 0 -> q = [] /\ (ma = [] \/ ~ Forall freq_defined ma \/ 999 < Z.of_nat (length (setfh_pairs ma)))).
Proof. exact setfh_carries_list. Qed.
Print Assumptions c20_setfh_carries_exactly_the_list.
