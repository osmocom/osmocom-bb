(* C10 - forwarded bursts carry faithful bits and correct simulated radio metadata. Statements; the proofs apply lemmas of Proofs/. *)
From Coq Require Import ZArith List Bool.
From OBB Require Import Gen.TrxdConst Gen.FakeTrxConst Gen.TscTab Model.Trxd Model.Trx Proofs.TrxdRxRT Proofs.TrxMeta Proofs.TrxMeta2 Proofs.TrxTsc.
Import ListNotations.
Open Scope Z_scope.

(* a burst that is neither muted nor dropped: the message handed to send_msg(legacy = True) is meta_msg, with
   ToA256 = draw in [base - thr, base + thr] - 256 x sender TA; RSSI = sender nominal power - sender attenuation - burst attenuation - 110
   (path loss), or a draw in the FAKE_RSSI window; C/I in its window (version >= 1); no threshold -> exactly the base values *)
Theorem c10_metadata : forall dst src sm bits ver draws,
  sim_ok dst -> s_muted dst = false -> t_burst sm = Some bits -> fst (sim_drop dst (oz (t_fn sm))) = false ->
  exists toa rssi ci d',
    handle_data dst src sm (trans sm ver) draws = (dst, send_out true (meta_msg ver sm bits rssi (toa - 256 * s_ta src) ci), d')
    /\ s_toa dst - s_toa_thr dst <= toa <= s_toa dst + s_toa_thr dst
    /\ (s_fake_rssi dst = false -> rssi = s_txp src - s_att src - oz (t_pwr sm) - 110)
    /\ (s_fake_rssi dst = true -> s_rssi dst - s_rssi_thr dst <= rssi <= s_rssi dst + s_rssi_thr dst)
    /\ (ver >=? 1 = true -> s_ci dst - s_ci_thr dst <= ci <= s_ci dst + s_ci_thr dst)
    /\ (s_toa_thr dst = 0 -> toa = s_toa dst) /\ (s_rssi_thr dst = 0 -> s_fake_rssi dst = true -> rssi = s_rssi dst)
    /\ (ver >=? 1 = true -> s_ci_thr dst = 0 -> ci = s_ci dst).
Proof. exact handle_normal. Qed.
Print Assumptions c10_metadata.

(* that message keeps frame and timeslot number, has the recipient's version, carries the bits converted, modulation by burst length,
   and for GMSK the detected TSC / TSC set (0, 0 otherwise) *)
Theorem c10_message_fields : forall ver sm bits rssi toa ci,
  let m := meta_msg ver sm bits rssi toa ci in
  r_ver m = ver /\ r_fn m = t_fn sm /\ r_tn m = t_tn sm /\ r_burst m = Some (map u2s bits) /\ r_nope m = false
  /\ r_rssi m = Some rssi /\ r_toa m = Some toa
  /\ (ver >=? 1 = true -> r_ci m = Some ci /\ r_mod m = pick_by_bl (Z.of_nat (length bits))
       /\ (r_mod m = Some GMSK_IDX -> r_tsc m = Some (fst (tsc_of bits)) /\ r_tset m = Some (snd (tsc_of bits)))
       /\ (r_mod m <> Some GMSK_IDX -> r_tsc m = Some 0 /\ r_tset m = Some 0)).
Proof. exact meta_msg_fields. Qed.
Print Assumptions c10_message_fields.

(* each transmitted bit arrives as a full-confidence soft bit of the matching sign *)
Theorem c10_bits : forall bits, Forall (fun b => 0 <= b < 256) bits ->
  map u2s bits = map (fun b => if b =? 0 then 127 else -127) bits.
Proof. exact hard_to_soft. Qed.
Print Assumptions c10_bits.

(* the datagram: documented layout in the recipient's version; version 0 is followed by the two legacy padding octets *)
Theorem c10_datagram : forall l m b, gen_rx l m = Ok b ->
  (match r_burst m with Some bs => Forall (fun s => -128 <= s <= 127) bs | None => True end) ->
  exists fn tn rssi toa, r_fn m = Some fn /\ r_tn m = Some tn /\ r_rssi m = Some rssi /\ r_toa m = Some toa /\
    b = layout_rx_hdr (r_ver m) fn tn rssi toa
        ++ (if r_ver m =? 1 then [gen_mts m] ++ layout_ci (oz (r_ci m)) else [])
        ++ (match r_burst m with Some bs => usbits bs | None => [] end)
        ++ (if l && (r_ver m =? 0) then [0; 0] else []).
Proof. exact (fun l m b => gen_rx_layout m l b). Qed.
Print Assumptions c10_datagram.

Theorem c10_mod_by_len : pick_by_bl 148 = Some 0%nat /\ pick_by_bl 444 = Some 1%nat /\ pick_by_bl 296 = Some 5%nat /\ pick_by_bl 592 = Some 3%nat /\ pick_by_bl 740 = Some 4%nat.
Proof. exact mod_by_len. Qed.
Print Assumptions c10_mod_by_len.

(* simulation defaults and the training sequence table are the documented ones (45.002 tables typed in by hand) *)
Theorem c10_tables : path_loss_default = 110 /\ nominal_tx_power_default = 50 /\ tx_att_default = 0 /\ toa256_base_default = 0 /\ ci_base_default = 90
  /\ tsc_tab = spec_tsc_tab.
Proof. exact gen_tables. Qed.
Print Assumptions c10_tables.

(* TSC detection is sound: what is reported is a training sequence actually present at the position of its burst type *)
Theorem c10_tsc_sound : forall burst c bt s bits, ts_pick burst = Some (c, bt, s, bits) ->
  In (c, bt, s, bits) tsc_tab /\
  ((bt = 0 /\ seg burst 61 26 = bits) \/ (bt = 1 /\ seg burst 8 41 = bits) \/ (bt = 2 /\ seg burst 42 64 = bits)).
Proof. intros burst c bt s bits H. apply find_some in H as [Hin Hm]. exact (conj Hin (ts_match_seg _ _ _ _ _ Hm)). Qed.
Print Assumptions c10_tsc_sound.

(* access bursts as the toolkit's generator builds them: the TSC / TSC set of the embedded sequence is reported, whatever the data bits *)
Theorem c10_tsc_access_burst : forall c s bits data, In (c, 1, s, bits) spec_tsc_tab -> tsc_of (layout_ab bits data) = (c, s).
Proof. intros c s bits data Hin. apply (tsc_detected _ c 1 s bits Hin (ab_carries c s bits data Hin)). intros H. contradiction H. reflexivity. Qed.
Print Assumptions c10_tsc_access_burst.

(* normal and sync bursts as the generator builds them (3 tail bits, data, [steal flag,] sequence, [steal flag,] data, 3 tail bits), with ANY data bits:
   the embedded sequence's TSC / TSC set is reported, provided no access-burst sequence (enumerated earlier) happens to sit at bits 8..48 of the
   payload - the side condition the detection rule itself imposes; that a sync sequence never matches inside a normal burst is discharged here *)
Theorem c10_tsc_normal_burst : forall c s bits d1 d2 s1 s2, In (c, 0, s, bits) spec_tsc_tab -> length d1 = 57%nat ->
  no_ab_match (layout_nb bits d1 d2 s1 s2) -> tsc_of (layout_nb bits d1 d2 s1 s2) = (c, s).
Proof. intros c s bits d1 d2 s1 s2 Hin Hd1 Hab. exact (tsc_detected _ c 0 s bits Hin (nb_carries c s bits d1 d2 s1 s2 Hin Hd1) (fun _ => Hab)). Qed.
Print Assumptions c10_tsc_normal_burst.

Theorem c10_tsc_sync_burst : forall c s bits d1 d2, In (c, 2, s, bits) spec_tsc_tab -> length d1 = 39%nat ->
  no_ab_match (layout_sb bits d1 d2) -> tsc_of (layout_sb bits d1 d2) = (c, s).
Proof. intros c s bits d1 d2 Hin Hd1 Hab. exact (tsc_detected _ c 2 s bits Hin (sb_carries c s bits d1 d2 Hin Hd1) (fun _ => Hab)). Qed.
Print Assumptions c10_tsc_sync_burst.
