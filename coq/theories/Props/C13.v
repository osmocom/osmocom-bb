(* C13 - validation accepts exactly the protocol value ranges; nothing invalid is sent. Statements; the proofs apply lemmas of Proofs/. *)
From Coq Require Import ZArith List.
From OBB Require Import Gen.TrxdConst Model.Trxd Proofs.TrxdBase Proofs.TrxdTx Proofs.TrxdRx Proofs.TrxdRxRT.
Import ListNotations.
Open Scope Z_scope.

(* Tx: validate() passes iff  ver in {0,1}, FN 0..2715647, TN 0..7, attenuation 0..255, burst of 148 or 444 (spec_tx, literal numbers) *)
Theorem c13_validate_tx_iff_spec : forall m, validate_tx m = Ok tt <-> spec_tx m.
Proof. exact validate_tx_iff. Qed.
Print Assumptions c13_validate_tx_iff_spec.

(* Rx: validate() passes iff ver, FN, TN as above, RSSI -120..-47, ToA256 in int16, and for version 1: C/I -1280..1280,
   (unless NOPE) a modulation, TSC 0..7, TSC set 0..3 for GMSK / 0..1 otherwise, burst length = the modulation's,
   NOPE carries no burst; for version 0: burst length 148 or 444 (spec_rx, literal numbers) *)
Theorem c13_validate_rx_iff_spec : forall m, validate_rx m = Ok tt <-> spec_rx m.
Proof. exact validate_rx_iff. Qed.
Print Assumptions c13_validate_rx_iff_spec.

(* validation signals only ValueError *)
Theorem c13_validate_only_valueerror : forall mt mr,
  (validate_tx mt = Ok tt \/ validate_tx mt = VErr) /\ (validate_rx mr = Ok tt \/ validate_rx mr = VErr).
Proof. exact (fun mt mr => conj (validate_tx_cases mt) (validate_rx_cases mr)). Qed.
Print Assumptions c13_validate_only_valueerror.

(* encoding is refused (ValueError) for exactly the messages that do not validate *)
Theorem c13_gen_refuses_exactly : forall mt mr l,
  ((exists b, gen_tx l mt = Ok b) <-> validate_tx mt = Ok tt) /\ ((exists b, gen_tx l mt = Ok b) \/ gen_tx l mt = VErr) /\
  ((exists b, gen_rx l mr = Ok b) <-> validate_rx mr = Ok tt) /\ ((exists b, gen_rx l mr = Ok b) \/ gen_rx l mr = VErr).
Proof. exact (fun mt mr l => conj (gen_tx_iff mt l) (conj (gen_tx_cases mt l) (conj (gen_rx_iff mr l) (gen_rx_cases mr l)))). Qed.
Print Assumptions c13_gen_refuses_exactly.

(* sending: exactly one datagram iff the message validates, otherwise no datagram at all *)
Theorem c13_send_emits_iff : forall mt mr l,
  ((exists b, send_tx l mt = Ok [b]) <-> validate_tx mt = Ok tt) /\ (validate_tx mt <> Ok tt -> send_tx l mt = Ok []) /\
  ((exists b, send_rx l mr = Ok [b]) <-> validate_rx mr = Ok tt) /\ (validate_rx mr <> Ok tt -> send_rx l mr = Ok []).
Proof.
  intros mt mr l. rewrite <- (gen_tx_iff mt l), <- (gen_rx_iff mr l).
  exact (conj (send_iff _) (conj (send_none _ (gen_tx_cases mt l)) (conj (send_iff _) (send_none _ (gen_rx_cases mr l))))).
Qed.
Print Assumptions c13_send_emits_iff.
