(* C03 - every queued burst is transmitted exactly once, in its own frame. Statements; the proofs apply lemmas of Proofs/. *)
From Coq Require Import ZArith List Bool.
From OBB Require Import Gen.FakeTrxConst Model.Trxd Model.Trx Model.Race Proofs.TrxInv Proofs.TrxTick Proofs.TrxQueue Proofs.RaceP.
Import ListNotations.
Open Scope Z_scope.

(* SEQUENTIAL HISTORIES of one transceiver: any sequence of datagram arrivals (any octets), clock ticks (any frame numbers, gaps,
   wrap), POWERON / POWEROFF and header-version changes. *)

(* no burst vanishes and none is duplicated: for EVERY class x of bursts,
   accepted = emitted + reported stale + cleared by power-off + still queued *)
Theorem c03_conservation : forall t ops, conserved (fold_left qstep ops (qinit t)).
Proof. exact conservation. Qed.
Print Assumptions c03_conservation.

(* never earlier, later or in another frame: whatever is emitted at a tick has that tick's frame number (modulo the hyperframe:
   is_due); whatever is reported stale lies behind the clock (is_behind: reaching its frame would take half a hyperframe or more) -
   frame numbers are compared modulo 2715648, so bursts queued across the wrap 2715647 -> 0 are sent in their own frame *)
Theorem c03_on_time : forall t ops, timely (fold_left qstep ops (qinit t)).
Proof. exact timeliness. Qed.
Print Assumptions c03_on_time.

(* one tick of a running transceiver: exactly the queued bursts of that frame are emitted (all of them, once, in queue order),
   the ones behind the clock are reported, exactly the ones ahead stay queued *)
Theorem c03_tick_exact : forall h fn, x_run (h_trx h) = true ->
  let h' := qstep h (QTick fn) in
  h_emitted h' = h_emitted h ++ map (fun m => (fn, m)) (filter (is_due fn) (x_q (h_trx h)))
  /\ h_stale h' = h_stale h ++ map (fun m => (fn, m)) (filter (is_behind fn) (x_q (h_trx h)))
  /\ x_q (h_trx h') = filter (is_ahead fn) (x_q (h_trx h)).
Proof. intros h fn Hr. cbn [qstep]. rewrite Hr, part_filter. cbn. auto. Qed.
Print Assumptions c03_tick_exact.

(* an arriving datagram is enqueued iff it parses, carries the negotiated header version and the transceiver is running; otherwise nothing changes *)
Theorem c03_arrival : forall h d,
  let h' := qstep h (QArrive d) in
  (forall m, parse_tx (firstn (Z.to_nat data_recv_size) d) = Ok m -> t_ver m = x_ver (h_trx h) -> x_run (h_trx h) = true ->
     x_q (h_trx h') = x_q (h_trx h) ++ [m] /\ h_accepted h' = h_accepted h ++ [m]) /\
  ((forall m, parse_tx (firstn (Z.to_nat data_recv_size) d) <> Ok m) \/ x_run (h_trx h) = false
     \/ (exists m, parse_tx (firstn (Z.to_nat data_recv_size) d) = Ok m /\ t_ver m <> x_ver (h_trx h)) -> h' = h).
Proof. exact arrive_exact. Qed.
Print Assumptions c03_arrival.

Theorem c03_poweroff_clears : forall h, let h' := qstep h QPowerOff in
  x_q (h_trx h') = [] /\ h_cleared h' = h_cleared h ++ x_q (h_trx h) /\ x_run (h_trx h') = false.
Proof. cbn. auto. Qed.
Print Assumptions c03_poweroff_clears.

(* the application-level tick (all transceivers, with burst forwarding in between) does exactly that to every transceiver's queue *)
Theorem c03_world_tick : forall w fn draws, wf_world w -> 0 <= fn ->
  let '(w', _, _) := tick w fn draws in
  forall k t, nth_error (w_trx w) k = Some t ->
    exists t', nth_error (w_trx w') k = Some t' /\
      x_q t' = (if x_run t then filter (is_ahead fn) (x_q t) else x_q t)
      /\ x_run t' = x_run t /\ x_ver t' = x_ver t /\ x_rx t' = x_rx t /\ x_tx t' = x_tx t /\ x_fh t' = x_fh t /\ x_cfg t' = x_cfg t.
Proof. exact tick_queues. Qed.
Print Assumptions c03_world_tick.

(* ALL THREAD SCHEDULES of one socket-side operation (arrival / POWEROFF / POWERON) racing one clock tick; atomic steps =
   lock-protected sections and single reads/writes of `running` / `fh` (Model/Race.v); schedules of any length *)
Theorem c03_interleavings_conserve : forall f op sched r fh q,
  Inv (run f op sched (init r fh q)) /\ Inv (run_all f op sched (init r fh q)).
Proof. intros. apply run_all_inv; [apply tick_inv|apply sock_inv|apply init_inv]. Qed.
Print Assumptions c03_interleavings_conserve.

Theorem c03_interleavings_on_time : forall f op sched r fh q,
  let s := run_all f op sched (init r fh q) in
  Forall (due f) (emitted s) /\ Forall (behind f) (stale s).
Proof.
  intros f op sched r fh q.
  destruct (run_all_inv (Timely f) f op (tick_timely f) (sock_timely f op) sched _ (init_timely f r fh q)) as [_ [A [_ [B _]]]]. exact (conj A B).
Qed.
Print Assumptions c03_interleavings_on_time.

(* the clock thread survives every schedule - fixed tuning or hopping, whatever the racing operation (the hopping parameters are read once) *)
Theorem c03_no_crash_schedule : forall f op sched r fh q, Alive (run_all f op sched (init r fh q)).
Proof. intros. apply run_all_inv; [apply tick_alive|apply sock_alive|exact I]. Qed.
Print Assumptions c03_no_crash_schedule.
