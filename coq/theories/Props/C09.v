(* C09 - clock source: consecutive frame numbers, one per tick, indications, no accumulated drift, resynchronisation, restart.
   Statements; the proofs apply lemmas of Proofs/.  Vocabulary (Model/Clock.v, mirrors trx_toolkit/clck_gen.py):
     worker c start t0 ins e_stop   one start() .. stop() period of CLCKGen whose thread starts at virtual time t0 (ns);
                                    ins = one record per completed loop iteration ("tick"):
                                      i_e  ns between the two clock reads of the overrun branch,
                                      i_j  oversleep of _breaker.wait() beyond its timeout (0 = ideal wait),
                                      i_d  ns spent in the clock handler;
                                    after the last record the breaker is set and the next wait returns True.
     r_obs r                        per tick: o_over (overrun branch taken), o_deadline (t_next after the update = instant the
                                    wait was asked to end), o_fn / o_time (clck_src and virtual time when send_clck_ind is
                                    entered = the arguments/time of the handler call), o_sends (link index, octets), o_called.
     c = {| tick; hyper; period; nlinks; handler |}   t_tick of _worker (ns), GSM_HYPERFRAME, ind_period, number of links, handler attached.
   tick is universally quantified; the value the implementation computes is c_tick (Gen), bounded in c09_constants.
   hyper is c_hyperframe (Gen, read from the imported module); the conclusions state 2715648 literally. *)
From Coq Require Import ZArith List Bool.
From OBB Require Import Gen.ClockConst Model.Clock Proofs.ClockP.
Import ListNotations.
Open Scope Z_scope.

(* the constants of the source: hyperframe 2715648 (both the name clck_gen uses and gsm_shared's), the tick the real worker
   exhibits is one TDMA frame period 4.615 ms: |tick - 4 615 000 ns| <= 1000 ns.  Tolerance: the property names the period to
   four digits (4.615 ms); 1 us covers the float floor-division artefact of `int(ctr_interval // 1e-9)` (4 614 999) and the
   exact frame length 120/26 ms = 4 615 384.6 ns, and is 2.2e-4 of a frame - a wrong unit or a wrong constant is off by >= 1000x that.
   The first tick comes one tick after the start.  Defaults: ind_period 102, clck_start 0. *)
Theorem c09_constants :
  c_hyperframe = 2715648 /\ c_hyperframe_shared = 2715648 /\
  0 < c_tick /\ Z.abs (c_tick - 4615000) <= 1000 /\ c_first_tick = c_tick /\
  c_default_period = 102 /\ c_default_start = 0.
Proof. exact constants. Qed.
Print Assumptions c09_constants.

(* once per tick, consecutive modulo the hyperframe from the configured start: the worker does not die, makes exactly one
   send_clck_ind per completed wait, calls the handler iff one is attached, and the k-th call gets (start + k) mod 2715648 -
   for every tick length, period <> 0, link count, timing input and start frame of the hyperframe (2715647 included) *)
Theorem c09_fn_sequence : forall tk per nl h start t0 ins e_stop, per <> 0 -> 0 <= start < 2715648 ->
  let r := worker {| tick := tk; hyper := c_hyperframe; period := per; nlinks := nl; handler := h |} start t0 ins e_stop in
  r_crashed r = false /\ length (r_obs r) = length ins /\
  forall k o, nth_error (r_obs r) k = Some o -> o_called o = h /\ o_fn o = (start + Z.of_nat k) mod 2715648.
Proof. exact (fun tk per nl h => fn_sequence (mkcfg tk per nl h)). Qed.
Print Assumptions c09_fn_sequence.

(* what the code does for ANY integer clck_start: the first call gets clck_start itself (not reduced), all later ones are reduced *)
Theorem c09_fn_sequence_any_start : forall tk per nl h start t0 ins e_stop, per <> 0 ->
  let r := worker {| tick := tk; hyper := c_hyperframe; period := per; nlinks := nl; handler := h |} start t0 ins e_stop in
  r_crashed r = false /\ length (r_obs r) = length ins /\
  forall k o, nth_error (r_obs r) k = Some o ->
    o_called o = h /\ o_fn o = match k with O => start | S _ => (start + Z.of_nat k) mod 2715648 end.
Proof. exact (fun tk per nl h => fn_sequence_gen (mkcfg tk per nl h)). Qed.
Print Assumptions c09_fn_sequence_any_start.

(* indications: at a tick whose frame number is divisible by the period one datagram goes to every attached link, in link order,
   all with the payload of that frame; at every other tick nothing is sent *)
Theorem c09_ind_exact : forall tk per nl h start t0 ins e_stop, per <> 0 ->
  forall k o, nth_error (r_obs (worker {| tick := tk; hyper := c_hyperframe; period := per; nlinks := nl; handler := h |} start t0 ins e_stop)) k = Some o ->
    (o_fn o mod per = 0 -> o_sends o = map (fun l => (l, payload (o_fn o))) (map Z.of_nat (seq 0 nl))) /\
    (o_fn o mod per <> 0 -> o_sends o = []).
Proof. exact (fun tk per nl h => ind_exact (mkcfg tk per nl h)). Qed.
Print Assumptions c09_ind_exact.

(* the payload: "IND CLOCK " (73 78 68 32 67 76 79 67 75 32), the decimal digits of fn (digits only, value fn, no leading zero,
   "0" for 0), one NUL; the NUL is the only zero octet, so the datagram is NUL-terminated *)
Theorem c09_payload : forall fn, 0 <= fn ->
  payload fn = [73; 78; 68; 32; 67; 76; 79; 67; 75; 32] ++ dec fn ++ [0]
  /\ Forall (fun d => 48 <= d <= 57) (dec fn) /\ dec fn <> []
  /\ fold_left (fun a d => 10 * a + (d - 48)) (dec fn) 0 = fn
  /\ (0 < fn -> hd 0 (dec fn) <> 48) /\ (fn = 0 -> dec fn = [48])
  /\ ~ In 0 ([73; 78; 68; 32; 67; 76; 79; 67; 75; 32] ++ dec fn).
Proof. exact payload_spec. Qed.
Print Assumptions c09_payload.

(* when a tick happens: the handler is entered at deadline + oversleep of the wait; the first deadline is start + one tick *)
Theorem c09_tick_time : forall tk per nl h start t0 ins e_stop, per <> 0 -> 0 <= tk ->
  forall k o i, nth_error (r_obs (worker {| tick := tk; hyper := c_hyperframe; period := per; nlinks := nl; handler := h |} start t0 ins e_stop)) k = Some o ->
    nth_error ins k = Some i ->
    o_time o = o_deadline o + i_j i /\ (k = O -> o_over o = false /\ o_deadline o = t0 + tk).
Proof.
  intros tk per nl h start t0 ins e Hp Htk k o i Ho Hi.
  split; [exact (tick_time (c:=mkcfg tk per nl h) Hp Ho Hi)|exact (first_tick (c:=mkcfg tk per nl h) Hp Htk Ho)].
Qed.
Print Assumptions c09_tick_time.

(* the complete law of the deadline: tick k+1 takes the overrun branch iff oversleep + handler time of tick k exceed one tick
   (equal to one tick is NOT an overrun); without overrun the deadline advances by exactly one tick (absolute schedule, the
   handler time does not enter), with overrun it is reset to the clock value read after the warning *)
Theorem c09_deadline_law : forall tk per nl h start t0 ins e_stop, per <> 0 ->
  forall k o o' i i',
    nth_error (r_obs (worker {| tick := tk; hyper := c_hyperframe; period := per; nlinks := nl; handler := h |} start t0 ins e_stop)) k = Some o ->
    nth_error (r_obs (worker {| tick := tk; hyper := c_hyperframe; period := per; nlinks := nl; handler := h |} start t0 ins e_stop)) (S k) = Some o' ->
    nth_error ins k = Some i -> nth_error ins (S k) = Some i' ->
    (i_j i + (if h then i_d i else 0) <= tk -> o_over o' = false /\ o_deadline o' = o_deadline o + tk) /\
    (tk < i_j i + (if h then i_d i else 0) -> o_over o' = true /\ o_deadline o' = o_time o + (if h then i_d i else 0) + i_e i').
Proof. exact (fun tk per nl h => @timing_step (mkcfg tk per nl h)). Qed.
Print Assumptions c09_deadline_law.

(* no accumulated drift: if at every earlier tick oversleep + handler time stayed within one tick, tick k is due at
   t0 + (k+1) * tick exactly, measured from the start of the worker, and happens then plus the oversleep of its own wait only
   (with an ideal wait, i_j = 0: exactly at t0 + (k+1) * tick) *)
Theorem c09_no_drift : forall tk per nl h start t0 ins e_stop, per <> 0 -> 0 <= tk ->
  forall k o i, nth_error (r_obs (worker {| tick := tk; hyper := c_hyperframe; period := per; nlinks := nl; handler := h |} start t0 ins e_stop)) k = Some o ->
    nth_error ins k = Some i ->
    (forall q iq, (q < k)%nat -> nth_error ins q = Some iq -> i_j iq + (if h then i_d iq else 0) <= tk) ->
    o_over o = false /\ o_deadline o = t0 + (Z.of_nat k + 1) * tk /\ o_time o = t0 + (Z.of_nat k + 1) * tk + i_j i.
Proof. exact (fun tk per nl h => no_drift (mkcfg tk per nl h)). Qed.
Print Assumptions c09_no_drift.

(* resynchronisation: if tick k overran (oversleep + handler time > one tick), tick k+1 takes the overrun branch, its deadline is
   "now" (the time the handler returned plus the time to emit the warning), it fires at once (wait(0): deadline + oversleep),
   and from then on the schedule is anchored THERE: as long as the following ticks fit, tick k+1+m is due exactly m ticks after
   that new anchor - no catch-up of the frames that were missed *)
Theorem c09_resync : forall tk per nl h start t0 ins e_stop, per <> 0 -> 0 <= tk ->
  forall k o i o1 i1,
    nth_error (r_obs (worker {| tick := tk; hyper := c_hyperframe; period := per; nlinks := nl; handler := h |} start t0 ins e_stop)) k = Some o ->
    nth_error ins k = Some i ->
    nth_error (r_obs (worker {| tick := tk; hyper := c_hyperframe; period := per; nlinks := nl; handler := h |} start t0 ins e_stop)) (S k) = Some o1 ->
    nth_error ins (S k) = Some i1 ->
    tk < i_j i + (if h then i_d i else 0) ->
    o_over o1 = true /\ o_deadline o1 = o_time o + (if h then i_d i else 0) + i_e i1 /\ o_time o1 = o_deadline o1 + i_j i1 /\
    forall m om im,
      nth_error (r_obs (worker {| tick := tk; hyper := c_hyperframe; period := per; nlinks := nl; handler := h |} start t0 ins e_stop)) (S k + m) = Some om ->
      nth_error ins (S k + m) = Some im ->
      (forall q iq, (S k <= q < S k + m)%nat -> nth_error ins q = Some iq -> i_j iq + (if h then i_d iq else 0) <= tk) ->
      o_deadline om = o_deadline o1 + Z.of_nat m * tk /\ o_time om = o_deadline o1 + Z.of_nat m * tk + i_j im /\ ((0 < m)%nat -> o_over om = false).
Proof. exact resync. Qed.
Print Assumptions c09_resync.

(* no catch-up burst, in general: whatever the handler does, the deadlines of ticks k and k+m are at least m ticks apart, and so
   are the tick instants once the oversleep of the two waits is taken out *)
Theorem c09_spacing : forall tk per nl h start t0 ins e_stop, per <> 0 -> 0 <= tk -> Forall (fun i => 0 <= i_e i) ins ->
  forall k m o o' i i',
    nth_error (r_obs (worker {| tick := tk; hyper := c_hyperframe; period := per; nlinks := nl; handler := h |} start t0 ins e_stop)) k = Some o ->
    nth_error (r_obs (worker {| tick := tk; hyper := c_hyperframe; period := per; nlinks := nl; handler := h |} start t0 ins e_stop)) (k + m) = Some o' ->
    nth_error ins k = Some i -> nth_error ins (k + m) = Some i' ->
    o_deadline o + Z.of_nat m * tk <= o_deadline o' /\ o_time o - i_j i + Z.of_nat m * tk <= o_time o' - i_j i'.
Proof. exact spacing. Qed.
Print Assumptions c09_spacing.

(* ... hence, with an ideal wait, any time window [a, a+w) contains at most w / tick + 1 ticks, for every handler-duration pattern *)
Theorem c09_no_burst : forall tk per nl h start t0 ins e_stop, per <> 0 -> 0 < tk -> Forall (fun i => 0 <= i_e i /\ i_j i = 0) ins ->
  forall a w, 0 <= w ->
  Z.of_nat (length (filter (fun t => (a <=? t) && (t <? a + w))
     (map o_time (r_obs (worker {| tick := tk; hyper := c_hyperframe; period := per; nlinks := nl; handler := h |} start t0 ins e_stop)))))
  <= w / tk + 1.
Proof. exact (fun tk per nl h => no_burst (mkcfg tk per nl h)). Qed.
Print Assumptions c09_no_burst.

(* stop() / start(): a session is start(); ticks; stop(); pause; start(); ...  Every period is a fresh worker: it begins again at
   the start frame whatever frame the previous period had reached, counts (start + k) mod 2715648, and its first deadline is one
   tick after its own start instant t0 (= end of the previous period + pause) *)
Theorem c09_restart : forall tk per nl h start t runs, per <> 0 -> 0 <= tk -> 0 <= start < 2715648 ->
  let c := {| tick := tk; hyper := c_hyperframe; period := per; nlinks := nl; handler := h |} in
  length (session c start t runs) = length runs /\
  forall n r, nth_error (session c start t runs) n = Some r ->
    exists gap e ins t0, nth_error runs n = Some (gap, e, ins) /\ r = worker c start t0 ins e /\
      match n with O => t0 = t + gap | S n' => exists rp, nth_error (session c start t runs) n' = Some rp /\ t0 = now (r_final rp) + gap end /\
      r_crashed r = false /\ length (r_obs r) = length ins /\
      (forall k o, nth_error (r_obs r) k = Some o -> o_fn o = (start + Z.of_nat k) mod 2715648) /\
      (forall o, nth_error (r_obs r) 0 = Some o -> o_fn o = start /\ o_over o = false /\ o_deadline o = t0 + tk).
Proof. exact restart. Qed.
Print Assumptions c09_restart.

(* outside the property's domain, recorded because the code does it: ind_period = 0 makes the first send_clck_ind raise
   ZeroDivisionError; the worker thread dies without a single tick *)
Theorem c09_period0_crash : forall tk nl h start t0 i ins e_stop,
  let r := worker {| tick := tk; hyper := c_hyperframe; period := 0; nlinks := nl; handler := h |} start t0 (i :: ins) e_stop in
  r_crashed r = true /\ r_obs r = [].
Proof. exact (fun tk nl h start t0 i ins e => period0_crash (mkcfg tk 0 nl h) start t0 i ins e eq_refl). Qed.
Print Assumptions c09_period0_crash.
