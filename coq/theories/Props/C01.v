(* C01 - TRXD messages survive encode/decode unchanged. Statements; the proofs apply lemmas of Proofs/. *)
From Coq Require Import ZArith List.
From OBB Require Import Gen.TrxdConst Model.Trxd Proofs.TrxdBase Proofs.TrxdTx Proofs.TrxdRx Proofs.TrxdRxRT.
Import ListNotations.
Open Scope Z_scope.

(* the constants and tables regenerated from data_msg.py / gsm_shared.py are the protocol's *)
Theorem c01_constants :
  mods = [(0,148); (4,444); (6,148); (8,592); (10,740); (12,296)] /\ known_versions = [0; 1] /\ gsm_hyperframe = 2715648
  /\ (forall s, -128 <= s < 128 -> s2us s = 127 - s) /\ (forall u, 0 <= u < 256 -> us2s u = if u =? 255 then -127 else 127 - u).
Proof. exact (conj gen_mods (conj gen_versions (conj gen_hyper (conj s2us_f us2s_f)))). Qed.
Print Assumptions c01_constants.

(* L1 -> TRX: whatever gen_msg produces (with or without the legacy padding) parses back to the very same message *)
Theorem c01_tx_roundtrip : forall m legacy b, gen_tx legacy m = Ok b -> parse_tx b = Ok m.
Proof. exact tx_roundtrip. Qed.
Print Assumptions c01_tx_roundtrip.

(* ... and gen_msg succeeds for every message whose fields are in the protocol ranges (spec_tx spells them out) *)
Theorem c01_tx_encodable : forall m legacy, spec_tx m -> exists b, gen_tx legacy m = Ok b.
Proof. exact tx_encodable. Qed.
Print Assumptions c01_tx_encodable.

(* TRX -> L1: every header version, every modulation / TSC set / TSC, NOPE or burst, soft bits in [-127,127]:
   the parsed message equals the original in every field the version carries *)
Theorem c01_rx_roundtrip : forall m legacy b,
  soft_ok m -> gen_rx legacy m = Ok b -> exists m', parse_rx b = Ok m' /\ carried m' = carried m.
Proof. exact rx_roundtrip. Qed.
Print Assumptions c01_rx_roundtrip.

Theorem c01_rx_encodable : forall m legacy, spec_rx m -> exists b, gen_rx legacy m = Ok b.
Proof. exact rx_encodable. Qed.
Print Assumptions c01_rx_encodable.

(* a version-0 message with the two legacy padding octets decodes to the same message as without them *)
Theorem c01_legacy_same_tx : forall m b1 b2, gen_tx true m = Ok b1 -> gen_tx false m = Ok b2 -> parse_tx b1 = parse_tx b2.
Proof. intros m b1 b2 H1 H2. rewrite (tx_roundtrip _ _ _ H1), (tx_roundtrip _ _ _ H2). reflexivity. Qed.
Print Assumptions c01_legacy_same_tx.

Theorem c01_legacy_same_rx : forall m b1 b2, soft_ok m -> gen_rx true m = Ok b1 -> gen_rx false m = Ok b2 ->
  exists m1 m2, parse_rx b1 = Ok m1 /\ parse_rx b2 = Ok m2 /\ carried m1 = carried m2.
Proof.
  intros m b1 b2 Hs H1 H2. destruct (rx_roundtrip _ _ _ Hs H1) as [m1 [P1 C1]]. destruct (rx_roundtrip _ _ _ Hs H2) as [m2 [P2 C2]].
  exists m1, m2. repeat split; try assumption. congruence.
Qed.
Print Assumptions c01_legacy_same_rx.

(* the restriction to [-127,127] is real: -128 validates but comes back as -127 (outside the property's quantifier) *)
Theorem c01_soft_m128_not_injective : us2s (s2us (-128)) = -127.
Proof. exact soft_m128_not_injective. Qed.
Print Assumptions c01_soft_m128_not_injective.
