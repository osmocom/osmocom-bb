(* C06 - Serial link framing (sercomm/HDLC) delivers every message intact.  Statements; the proofs apply lemmas of Proofs/.
   Model: Model/Sercomm.v (Tx: sendmsg / pull, Rx: rx_char, parametrised by the receive capacity cap =
   tailroom of the receive msgb: 2048 in the host build, 256 on the target; every theorem holds for all cap).
   Spec-side vocabulary (Proofs/SercommS.v, protocol numbers literal):
     escape_free d      := d <> 126 /\ d <> 125 /\ d <> 0         (DLCIs whose address octet Tx does not escape)
     good_stream_lit    := noise without 126, frames with escape_free DLCI and payload shorter than cap
     wf_stream_lit      := the same with frames of ANY length; noise directly after a frame longer than cap excluded
     valid_hist         := every Send addresses an existing queue (0 <= d < 129)
     valid_hist_e2e cap := moreover escape_free DLCI and payload shorter than cap
   frame d p = 126 :: escape (d :: 3 :: p) ++ [126];  rmsg (d, p) = RMsg d p = dispatch_rx_msg(d, p). *)
From Coq Require Import ZArith List Bool.
From OBB Require Import Gen.SercommConst Model.Sercomm Model.SercommDrv Proofs.SercommP Proofs.SercommTxP Proofs.SercommS Proofs.SercommDrvP.
Import ListNotations.
Open Scope Z_scope.

(* the constants of the source, as compiled (Gen), are the protocol's *)
Theorem c06_constants :
  c_HDLC_FLAG = 126 /\ c_HDLC_ESCAPE = 125 /\ c_HDLC_C_UI = 3 /\ c_SC_DLCI_MAX = 129 /\ c_SC_DLCI_ECHO = 128 /\
  c_n_tx_queues = 129 /\ c_n_rx_handlers = 129 /\
  c_SERCOMM_RX_MSG_SIZE = 2048 /\ c_rx_tailroom = 2048 /\ c_rx_headroom = 4 /\ c_SERCOMM_RX_MSG_SIZE_target = 256 /\
  c_named_dlcis = [0; 4; 5; 9; 10; 128].
Proof. exact constants. Qed.
Print Assumptions c06_constants.

(* what a frame is, and what Tx escapes: 0x7E, 0x7D and 0x00, by 0x7D followed by the octet with bit 5 flipped *)
Theorem c06_frame_shape : forall d p b l,
  frame d p = 126 :: escape (d :: 3 :: p) ++ [126] /\
  escape [] = [] /\
  escape (b :: l) = if (b =? 126) || (b =? 125) || (b =? 0) then 125 :: Z.lxor b 32 :: escape l else b :: escape l.
Proof. exact (fun d p b l => conj eq_refl (conj eq_refl eq_refl)). Qed.
Print Assumptions c06_frame_shape.

(* between the opening and the closing flag there is no unescaped flag and no zero octet, for ANY address and
   payload; every 0x7D is followed by 0x5E, 0x5D or 0x20 *)
Theorem c06_no_raw_flag_or_zero : forall d p,
  Forall (fun b => b <> 126 /\ b <> 0) (escape (d :: 3 :: p)) /\ esc_followed (escape (d :: 3 :: p)).
Proof. exact (fun d p => escape_clean (d :: 3 :: p)). Qed.
Print Assumptions c06_no_raw_flag_or_zero.

(* one frame through the receiver from the idle state: exactly one dispatch, identical DLCI and payload *)
Theorem c06_transparent : forall cap d p, escape_free d -> len p < cap ->
  rx_run cap rx0 (frame d p) = ({| st := WAIT; dlci := d; ctrl := 3; buf := []; blen := 0 |}, [RMsg d p]).
Proof. exact (fun cap d p Hd => rx_frame cap 0 0 d p (escape_free_ok d Hd)). Qed.
Print Assumptions c06_transparent.

(* any sequence of frames with flag-free noise before, between and after them: every frame is dispatched
   exactly once, in order, unchanged; nothing else is dispatched, no overflow *)
Theorem c06_stream : forall cap its, 0 < cap -> good_stream_lit cap its ->
  exists d1 c1, rx_run cap rx0 (render its) =
    ({| st := WAIT; dlci := d1; ctrl := c1; buf := []; blen := 0 |}, map rmsg (frames_of its)).
Proof. exact (fun cap its Hc Hg => rx_stream cap Hc its 0 0 (good_stream_of_lit cap its Hg)). Qed.
Print Assumptions c06_stream.

(* ... and with a handler registered for every DLCI in use, the handlers get exactly these messages *)
Theorem c06_stream_delivered : forall cap reg its, 0 < cap -> good_stream_lit cap its ->
  Forall (fun x => fst x < 129 /\ In (fst x) reg) (frames_of its) ->
  delivered reg (msgs (snd (rx_run cap rx0 (render its)))) = frames_of its.
Proof. exact (fun cap reg its Hc Hg => rx_stream_delivered cap reg its Hc (good_stream_of_lit cap its Hg)). Qed.
Print Assumptions c06_stream_delivered.

(* memory safety of the receiver for EVERY octet sequence (hence every prefix of it): the stored length never
   exceeds the capacity, msgb_put never aborts, and every dispatched payload is shorter than the capacity *)
Theorem c06_rx_memory_safe : forall cap l, 0 <= cap ->
  0 <= blen (fst (rx_run cap rx0 l)) <= cap /\
  blen (fst (rx_run cap rx0 l)) = len (buf (fst (rx_run cap rx0 l))) /\
  ~ In RAbort (snd (rx_run cap rx0 l)) /\
  (forall d p, In (d, p) (msgs (snd (rx_run cap rx0 l))) -> len p < cap).
Proof. exact (fun cap l Hc => rx_run_inv cap l rx0 (rx0_inv cap Hc)). Qed.
Print Assumptions c06_rx_memory_safe.

(* an over-long frame (payload >= capacity) anywhere in a good stream, directly followed by a frame:
   it is discarded, the following frame is lost iff the payload is LONGER than the capacity (the junk it turns
   into can only appear on DLCI 0x7E), every later frame is dispatched *)
Theorem c06_overlong_resync : forall cap pre d p d1 p1 post,
  0 < cap -> good_stream_lit cap pre -> escape_free d -> cap <= len p ->
  escape_free d1 -> len p1 < cap -> good_stream_lit cap post ->
  exists s evs,
    rx_run cap rx0 (render (pre ++ Frame d p :: Frame d1 p1 :: post)) = (s, evs) /\ ~ In RAbort evs /\
    filter (fun x => negb (fst x =? 126)) (msgs evs) =
      frames_of pre ++ (if cap <? len p then [] else [(d1, p1)]) ++ frames_of post.
Proof.
  exact (fun cap pre d p d1 p1 post Hc Hpre Hd Hp Hd1 Hp1 Hpost =>
    overlong_resync cap pre d p d1 p1 post Hc (good_stream_of_lit cap pre Hpre) (escape_free_ok d Hd) Hp
      (escape_free_ok d1 Hd1) Hp1 (good_stream_of_lit cap post Hpost)).
Qed.
Print Assumptions c06_overlong_resync.

(* the same for any number of over-long frames anywhere: [expect] drops exactly the in-size frame that follows
   a frame longer than the capacity *)
Theorem c06_stream_general : forall cap its, 0 < cap -> wf_stream_lit cap false its ->
  exists s evs, rx_run cap rx0 (render its) = (s, evs) /\ ~ In RAbort evs /\
    filter (fun x => negb (fst x =? 126)) (msgs evs) = expect cap false its.
Proof. exact (fun cap its Hc Hw => rx_stream_general cap its Hc (wf_stream_of_lit cap its false Hw)). Qed.
Print Assumptions c06_stream_general.

(* Tx, every history of sendmsg/pull: the octets pulled so far, completed by the rest of the frame in
   transmission, are the concatenation of whole frames of the messages started so far; per DLCI the started
   messages followed by the still queued ones are exactly the sent ones, in sending order (FIFO, exactly once,
   nothing invented) *)
Theorem c06_pull_refines_frames : forall h, valid_hist h ->
  exists started,
    snd (tx_run tx0 h) ++ remaining (fst (tx_run tx0 h)) = concat (map frame' started) /\
    (forall d, 0 <= d < 129 ->
       map hdr' (filter (on_dlci d) started) ++ qget (queues (fst (tx_run tx0 h))) d = map hdr' (filter (on_dlci d) (sends h))) /\
    (forall x, In x started -> In x (sends h)).
Proof. exact (fun h _ => pull_refines_frames h). Qed.
Print Assumptions c06_pull_refines_frames.

(* which message is started: after any history, a pull with no frame in transmission takes the head of the
   lowest-numbered non-empty queue (or returns 0 if all are empty); while a frame is in transmission a pull
   only advances it and a sendmsg only appends to its queue - a message queued meanwhile, even on a lower
   DLCI, waits for the closing flag (non-preemptive priority) *)
Theorem c06_pull_priority : forall h, valid_hist h -> let t := fst (tx_run tx0 h) in
  (cur t = None ->
    (pull t = (PNone, t) /\ forall i, nth i (queues t) [] = []) \/
    (exists i m t', pull t = (PCh 126, t') /\ cur t' = Some m /\ (i < 129)%nat /\
                    nth i (queues t) [] = m :: nth i (queues t') [] /\
                    (forall j, (j < i)%nat -> nth j (queues t) [] = []) /\
                    (forall j, j <> i -> nth j (queues t') [] = nth j (queues t) []))) /\
  (forall l, cur t = Some l -> exists c t', pull t = (PCh c, t') /\ remaining t = c :: remaining t' /\ queues t' = queues t) /\
  (forall d p t', sendmsg t d p = Some t' -> cur t' = cur t /\ tstate t' = tstate t /\ remaining t' = remaining t).
Proof.
  exact (fun h _ => conj (pull_idle_cases _ NQ (tx_ok_reach h) (queues_reach h))
                     (conj (pull_busy_queues _ (tx_ok_reach h)) (sendmsg_keeps _))).
Qed.
Print Assumptions c06_pull_priority.

(* Tx memory safety: no history makes the octet machine read at or past msg->tail; sendmsg is defined exactly
   for the DLCIs that index an existing queue (others index dlci_queues[] out of bounds) *)
Theorem c06_tx_memory_safe : forall h t d p,
  fst (pull (fst (tx_run tx0 h))) <> POOB /\
  (0 <= d < 129 -> exists t', sendmsg t d p = Some t') /\
  (d < 0 \/ 129 <= d -> sendmsg t d p = None).
Proof. exact (fun h t d p => conj (pull_no_oob _ (tx_ok_reach h)) (sendmsg_defined t d p)). Qed.
Print Assumptions c06_tx_memory_safe.

(* everything queued, then drained: lower DLCI numbers first, FIFO within a DLCI *)
Theorem c06_batch_order : forall sd n, Forall (fun x => 0 <= fst x < 129) sd ->
  (length (concat (map frame' (sorted_by_dlci sd))) <= n)%nat ->
  snd (tx_run tx0 (map send_of sd ++ repeat Pull n)) = concat (map frame' (sorted_by_dlci sd)) /\
  sorted_by_dlci sd = flat_map (fun i => filter (fun x => fst x =? Z.of_nat i) sd) (seq 0 129).
Proof. exact (fun sd n _ Hn => conj (batch_order sd n Hn) eq_refl). Qed.
Print Assumptions c06_batch_order.

(* end to end, any interleaving of sendmsg and pull, every pulled octet fed to a receiver that starts idle:
   the receiver has dispatched a prefix of the started messages, unchanged - all of them whenever no frame
   is in transmission - and started/queued/sent are related per DLCI as in c06_pull_refines_frames *)
Theorem c06_end_to_end : forall cap h, 0 < cap -> valid_hist_e2e cap h ->
  exists started rest,
    snd (rx_run cap rx0 (snd (tx_run tx0 h))) ++ rest = map rmsg started /\
    (remaining (fst (tx_run tx0 h)) = [] -> rest = []) /\
    (forall d, 0 <= d < 129 ->
       map hdr' (filter (on_dlci d) started) ++ qget (queues (fst (tx_run tx0 h))) d = map hdr' (filter (on_dlci d) (sends h))).
Proof. exact (fun cap h Hc Hv => end_to_end cap h Hc (valid_hist_e2e_ok cap h Hv)). Qed.
Print Assumptions c06_end_to_end.

(* end to end, batch: the receiver dispatches every message exactly once, unchanged, lower DLCI first, FIFO per DLCI *)
Theorem c06_end_to_end_batch : forall cap sd n, 0 < cap ->
  Forall (fun x => 0 <= fst x < 129 /\ escape_free (fst x) /\ len (snd x) < cap) sd ->
  (length (concat (map frame' (sorted_by_dlci sd))) <= n)%nat ->
  snd (rx_run cap rx0 (snd (tx_run tx0 (map send_of sd ++ repeat Pull n)))) = map rmsg (sorted_by_dlci sd).
Proof. exact (fun cap sd n Hc Hv => end_to_end_batch cap sd n Hc (Forall_impl _ (valid_msg_lit cap) Hv)). Qed.
Print Assumptions c06_end_to_end_batch.

(* DEFECT of the pinned tree (hypothesis escape_free above is forced): DLCI 0 = SC_DLCI_HIGHEST is registrable
   and sendable, but its frame is dispatched as DLCI 0x7D with the control octet prepended to the payload *)
Theorem c06_dlci0_refuted :
  ~ escape_free 0 /\ 0 <= 0 < 129 /\ len [65] < 2048 /\
  frame 0 [65] = [126; 125; 32; 3; 65; 126] /\
  msgs (snd (rx_run 2048 rx0 (frame 0 [65]))) = [(125, [3; 65])] /\
  msgs (snd (rx_run 2048 rx0 (frame 0 [65]))) <> [(0, [65])].
Proof. exact s_dlci0_refuted. Qed.
Print Assumptions c06_dlci0_refuted.

Theorem c06_dlci0_general : forall cap p, 1 + len p < cap ->
  rx_run cap rx0 (frame 0 p) = ({| st := WAIT; dlci := 125; ctrl := 32; buf := []; blen := 0 |}, [RMsg 125 (3 :: p)]).
Proof. exact (fun cap p => rx_frame_escaped cap 0 p eq_refl). Qed.
Print Assumptions c06_dlci0_general.

(* DEFECT of the pinned tree (the exclusion in wf_stream_lit is forced): flag-free noise directly after a frame
   longer than the capacity is NOT ignored - its first octet is taken as a DLCI, a junk message is dispatched
   there, and TWO following frames are lost instead of at most one *)
Theorem c06_noise_after_overlong_refuted :
  wf_stream_lit 2048 false [Frame 5 (repeat 65 2049); Frame 5 [1]; Frame 5 [2]; Frame 5 [3]] /\
  expect 2048 false [Frame 5 (repeat 65 2049); Frame 5 [1]; Frame 5 [2]; Frame 5 [3]] = [(5, [2]); (5, [3])] /\
  Forall (fun b => b <> 126) [9; 1; 2] /\
  msgs (snd (rx_run 2048 rx0 (render [Frame 5 (repeat 65 2049); Noise [9; 1; 2]; Frame 5 [1]; Frame 5 [2]; Frame 5 [3]])))
  = [(9, [2]); (126, [3; 2]); (5, [3])].
Proof. exact s_noise_after_overlong_refuted. Qed.
Print Assumptions c06_noise_after_overlong_refuted.

(* ------------------------------------------------------------------------------------------------------------------
   Driver glue: src/host/osmocon/osmocon.c handle_sercomm_write() drains the transmit side into the serial port.
   Model/SercommDrv.v:  drv_write_chunk t = one call (at most 256 pulls, the bound checked BEFORE each pull, stops at the
   first pull that returns 0) = (new tx state, octets handed to write(), DMore | DEnd = osmo_fd_write_disable called);
   drain fuel t = the calls of the select loop until write polling is disabled, one (octets, result) entry per call;
   written calls = concat (map fst calls);
   pending t = remaining t ++ concat (map frame_of (concat (queues t))) = rest of the frame in transmission followed by
   the frames of everything queued, lowest DLCI first, FIFO per DLCI. *)

(* sizeof(buffer) in the source text *)
Theorem c06_drv_constants : c_drv_write_buffer = 256.
Proof. exact (proj1 drv_buf_val). Qed.
Print Assumptions c06_drv_constants.

(* [pending] IS the octet stream repeated sercomm_drv_pull calls yield, after any history of sendmsg/pull:
   n pulls return its first n octets and leave the rest pending; it is empty exactly when a pull returns 0 *)
Theorem c06_drv_pending : forall h n, let t := fst (tx_run tx0 h) in
  snd (tx_run t (repeat Pull n)) = firstn n (pending t) /\
  pending (fst (tx_run t (repeat Pull n))) = skipn n (pending t) /\
  (pending t = [] <-> pull t = (PNone, t)).
Proof. exact (fun h n => drv_pending _ n (tx_ok_reach h)). Qed.
Print Assumptions c06_drv_pending.

(* one call of handle_sercomm_write in any reachable transmit state: it writes exactly the first (at most 256) pending
   octets, the state afterwards is the state after exactly that many pulls (no octet is pulled and not written), the
   rest stays pending; end is reported iff fewer than 256 octets were pending, and then nothing is pending *)
Theorem c06_drv_chunk : forall h, let t := fst (tx_run tx0 h) in
  exists t' o r, drv_write_chunk t = (t', o, r) /\
    o = firstn 256 (pending t) /\ pending t' = skipn 256 (pending t) /\
    tx_run t (repeat Pull (length o)) = (t', o) /\ (length o <= 256)%nat /\
    ((r = DMore /\ length o = 256%nat /\ (256 <= length (pending t))%nat) \/
     (r = DEnd /\ (length o < 256)%nat /\ o = pending t /\ pull t' = (PNone, t'))).
Proof. exact (fun h => drv_chunk _ (tx_ok_reach h)). Qed.
Print Assumptions c06_drv_chunk.

(* repeated calls until write polling is disabled: the concatenation of the chunks written is exactly the octet stream
   repeated pulls yield (nothing lost, nothing duplicated, order kept); every chunk has at most 256 octets; every call
   but the last writes exactly 256 octets and does not report end, the last one reports end; the number of calls is
   pending/256 + 1; afterwards nothing is pending and a pull returns 0 *)
Theorem c06_drv_drain : forall h fuel, let t := fst (tx_run tx0 h) in
  (length (pending t) < fuel * 256)%nat ->
  exists t' calls, drain fuel t = (t', calls) /\
    written calls = pending t /\
    (forall n, (length (pending t) <= n)%nat -> written calls = snd (tx_run t (repeat Pull n))) /\
    Forall (fun c => (length (fst c) <= 256)%nat) calls /\
    map snd calls = repeat DMore (length calls - 1) ++ [DEnd] /\
    Forall (fun c => snd c = DMore -> length (fst c) = 256%nat) calls /\
    length calls = (length (pending t) / 256 + 1)%nat /\
    pending t' = [] /\ pull t' = (PNone, t').
Proof. exact (fun h fuel => drv_drain fuel _ (tx_ok_reach h)). Qed.
Print Assumptions c06_drv_drain.

(* end to end through the driver glue: messages queued, drained by handle_sercomm_write calls, the written octets fed to
   a receiver that starts idle: every message is dispatched exactly once, unchanged, lower DLCI first, FIFO per DLCI *)
Theorem c06_drv_end_to_end_batch : forall cap sd fuel, 0 < cap ->
  Forall (fun x => 0 <= fst x < 129 /\ escape_free (fst x) /\ len (snd x) < cap) sd ->
  (length (concat (map frame' (sorted_by_dlci sd))) < fuel * 256)%nat ->
  exists t' calls, drain fuel (fst (tx_run tx0 (map send_of sd))) = (t', calls) /\
    written calls = concat (map frame' (sorted_by_dlci sd)) /\
    snd (rx_run cap rx0 (written calls)) = map rmsg (sorted_by_dlci sd) /\
    Forall (fun c => (length (fst c) <= 256)%nat) calls /\
    map snd calls = repeat DMore (length calls - 1) ++ [DEnd] /\
    length calls = (length (concat (map frame' (sorted_by_dlci sd))) / 256 + 1)%nat /\
    pull t' = (PNone, t').
Proof. exact (fun cap sd fuel Hc Hv => drv_end_to_end_batch cap sd fuel Hc (Forall_impl _ (valid_msg_lit cap) Hv)). Qed.
Print Assumptions c06_drv_end_to_end_batch.

(* non-vacuity: a pending run longer than the buffer (one 400-octet message = 404 framed octets; two messages back to
   back on DLCIs 9 and 4 = 263 framed octets, the 257th octet opens the second chunk) *)
Theorem c06_drv_example :
  let t := fst (tx_run tx0 [Send 5 (repeat 65 400)]) in
  length (pending t) = 404%nat /\
  (let '(_, calls) := drain 2 t in
   map (fun c => (length (fst c), snd c)) calls = [(256%nat, DMore); (148%nat, DEnd)] /\
   written calls = frame 5 (repeat 65 400) /\
   snd (rx_run 2048 rx0 (written calls)) = [RMsg 5 (repeat 65 400)]) /\
  (let '(_, calls) := drain 2 (fst (tx_run tx0 [Send 9 [1]; Send 4 (repeat 66 254)])) in
   map (fun c => (length (fst c), snd c)) calls = [(256%nat, DMore); (7%nat, DEnd)] /\
   snd (rx_run 2048 rx0 (written calls)) = [RMsg 4 (repeat 66 254); RMsg 9 [1]]).
Proof. exact s_drv_example. Qed.
Print Assumptions c06_drv_example.
