(* C17 - the declarative TRXD PDU definitions (trx_toolkit/trxd_proto.py), versions 0, 1, 2, both directions.
   Statements; the proofs apply lemmas of Proofs/.  pdu_v0_rx ... pdu_v2_tx are NOT hand-written: Gen/TrxdProto.v is reflected from the imported objects on
   every run, as terms of the C16 embedding (Model/Codec.v).  The hand-written side (Proofs/TrxdProtoSpec.v, TrxdProtoMsg.v)
   states the documented structure literally; field names are numbered 0 ver, 1 tn, 2 fn, 3 rssi, 4 toa256, 5 soft-bits,
   6 pad, 7 pwr, 8 hard-bits, 9 nope, 10 mod, 11 tsc, 12 cir, 13 batch, 14 shadow, 15 trxn, 16 scpir, 17 bpdu.
   accepts pdu e b  :=  encode pdu e = Ok b /\ decode true pdu b = Ok (e, |b|) /\ decode false pdu b = Ok (e, |b|). *)
From Coq Require Import ZArith List Bool.
From OBB Require Model.Trxd Proofs.TrxdBase Proofs.TrxdTx Proofs.TrxdRx Proofs.TrxdRxRT.
From OBB Require Import Gen.TrxdProto Base.Bits Model.Codec Proofs.CodecInt Proofs.CodecBits Proofs.CodecRT Proofs.CodecDE Proofs.CodecErr
  Proofs.CodecGood Proofs.CodecSem Proofs.TrxdProtoSpec Proofs.TrxdProtoBits Proofs.TrxdProtoMsg Proofs.TrxdProtoTop Proofs.TrxdProtoRfu Proofs.TrxdProtoAcc Proofs.TrxdProtoP.
Import ListNotations.
Open Scope Z_scope.

(* the reflected definitions are the documented structures:
   v0/v1 header VER(4) RFU(1) TN(3); v2 header + BATCH(1) RFU(1) TRXN(6); MTS NOPE(1) MOD(4) TSC(3);
   v0 Rx: hdr FN(4) -RSSI(1) ToA256(2, signed) soft-bits(by the length rule of the source) pad(rest);
   v0/v1 Tx: hdr FN PWR hard-bits(rest);  v1 Rx: hdr FN -RSSI ToA256 MTS C/I(2, signed) soft-bits(by MOD, absent if NOPE);
   v2 Rx: hdr2 MTS -RSSI ToA256 C/I FN soft-bits {sub-PDU: hdr2b MTS -RSSI ToA256 C/I soft-bits}*;
   v2 Tx: hdr2 MTS PWR SCPIR(signed) 3 spare octets FN hard-bits {sub-PDU: hdr2b MTS PWR SCPIR 3 spare hard-bits}*;
   every envelope checks its length; the only MOD code without a burst length is 7 *)
Theorem c17_defs :
  pdu_v0_rx = spec_v0_rx v0rx_rule /\ (exists thr a b, v0rx_rule = LDataLen thr a b) /\
  pdu_v0_tx = spec_v01_tx 0 /\ pdu_v1_rx = spec_v1_rx /\ pdu_v1_tx = spec_v01_tx 1 /\
  pdu_v2_rx = spec_v2_rx /\ pdu_v2_tx = spec_v2_tx /\
  (pdu_v0_rx_chk = true /\ pdu_v0_tx_chk = true /\ pdu_v1_rx_chk = true /\ pdu_v1_tx_chk = true /\ pdu_v2_rx_chk = true /\ pdu_v2_tx_chk = true) /\
  burst_len_unknown = [7].
Proof. exact defs_eq. Qed.
Print Assumptions c17_defs.

(* all six definitions are well-formed in the sense of C16 (so c16_enc_dec, c16_dec_enc, c16_reencode_canonical, ... apply),
   are accepted by the constructors, and every batched sub-PDU consumes octets *)
Theorem c17_wf : forall fs, In fs [pdu_v0_rx; pdu_v0_tx; pdu_v1_rx; pdu_v1_tx; pdu_v2_rx; pdu_v2_tx] ->
  wfb fs = true /\ proto_ok fs = true /\ seq_ok fs = true.
Proof. exact pdu_wf. Qed.
Print Assumptions c17_wf.

(* corollary of C16 for each PDU (v2: whatever the number of batched sub-PDUs): every accepted datagram is consumed
   entirely, re-encodes to the same number of octets, and the re-encoding decodes to the same message *)
Theorem c17_roundtrip : forall pdu data v n, In pdu [pdu_v0_rx; pdu_v0_tx; pdu_v1_rx; pdu_v1_tx; pdu_v2_rx; pdu_v2_tx] ->
  Forall (fun o => 0 <= o < 256) data -> decode true pdu data = Ok (v, n) ->
  n = length data /\ exists b', encode pdu v = Ok b' /\ length b' = n /\ decode true pdu b' = Ok (v, n).
Proof. exact pdu_roundtrip. Qed.
Print Assumptions c17_roundtrip.

(* a datagram is either accepted or rejected with the codec's own DecodeError: no other exception, no endless loop *)
Theorem c17_outcome : forall chk pdu data, In pdu [pdu_v0_rx; pdu_v0_tx; pdu_v1_rx; pdu_v1_tx; pdu_v2_rx; pdu_v2_tx] ->
  (exists r, decode chk pdu data = Ok r) \/ (exists c, decode chk pdu data = DecodeErr c).
Proof. exact pdu_closed. Qed.
Print Assumptions c17_outcome.

(* ------------------------------------------------------------------ layout and round trip of typed messages *)
(* v0 / v1 Tx:  [VER*16 + TN; FN (4, big endian); PWR] ++ hard-bits *)
Theorem c17_layout_tx : forall tn fn pwr bits, 0 <= tn < 8 -> 0 <= fn < 4294967296 -> 0 <= pwr < 256 ->
  accepts pdu_v0_tx (tx_fields 0 tn fn pwr bits) ([0 * 16 + tn] ++ be32 fn ++ [pwr] ++ bits) /\
  accepts pdu_v1_tx (tx_fields 1 tn fn pwr bits) ([1 * 16 + tn] ++ be32 fn ++ [pwr] ++ bits).
Proof. exact (fun tn fn pwr bits Ht Hf Hp => conj (tx_accepts 0 tn fn pwr bits (or_introl eq_refl) Ht Hf Hp) (tx_accepts 1 tn fn pwr bits (or_intror eq_refl) Ht Hf Hp)). Qed.
Print Assumptions c17_layout_tx.

(* v0 Rx:  [TN; FN; -RSSI; ToA256 (2)] ++ soft-bits ++ pad, provided the length rule of the source answers |soft-bits| *)
Theorem c17_layout_rx0 : forall tn fn rssi toa sb pad, 0 <= tn < 8 -> 0 <= fn < 4294967296 -> -255 <= rssi <= 0 -> -32768 <= toa < 32768 ->
  rule_at (length sb + length pad) = Ok (length sb) ->
  accepts pdu_v0_rx (rx0_fields tn fn rssi toa sb pad) ([0 * 16 + tn] ++ be32 fn ++ [- rssi] ++ be16 toa ++ sb ++ pad).
Proof. exact rx0_accepts. Qed.
Print Assumptions c17_layout_rx0.

(* v1 Rx:  [16 + TN; FN; -RSSI; ToA256; NOPE*128 + MOD*8 + TSC; C/I (2)] ++ soft-bits,
   burst_ok np md sb := (np = 0 /\ the table gives |sb| for md) \/ (np = 1 /\ sb = []) *)
Theorem c17_layout_rx1 : forall tn fn rssi toa np md tc cir sb, 0 <= tn < 8 -> 0 <= fn < 4294967296 -> -255 <= rssi <= 0 -> -32768 <= toa < 32768 ->
  0 <= md < 16 -> 0 <= tc < 8 -> -32768 <= cir < 32768 -> burst_ok np md sb ->
  accepts pdu_v1_rx (rx1_fields tn fn rssi toa np md tc cir sb)
          ([1 * 16 + tn] ++ be32 fn ++ [- rssi] ++ be16 toa ++ [np * 128 + md * 8 + tc] ++ be16 cir ++ sb).
Proof. exact rx1_accepts. Qed.
Print Assumptions c17_layout_rx1.

(* v2 Rx / Tx with ANY number of batched sub-PDUs: octets = main part ++ concatenation of the sub-PDU layouts, and every
   sub-PDU comes back intact (rx2_layout / tx2_layout / rxsub_layout / txsub_layout in Proofs/TrxdProtoMsg.v) *)
Theorem c17_layout_v2 :
  (forall m, rx2_ok m -> accepts pdu_v2_rx (rx2_fields m) (rx2_layout m)) /\
  (forall m, tx2_ok m -> accepts pdu_v2_tx (tx2_fields m) (tx2_layout m)).
Proof. exact (conj rx2_accepts tx2_accepts). Qed.
Print Assumptions c17_layout_v2.

(* ------------------------------------------------------------------ burst length, NOPE *)
Theorem c17_burst_len_table : forall m, 0 <= m < 16 ->
  assocZ m burst_tab = (if (0 <=? m) && (m <=? 3) then Some 148%nat else if (4 <=? m) && (m <=? 5) then Some 444%nat else if m =? 6 then Some 148%nat
                        else if (8 <=? m) && (m <=? 9) then Some 592%nat else if (10 <=? m) && (m <=? 11) then Some 740%nat
                        else if (12 <=? m) && (m <=? 15) then Some 296%nat else None).
Proof. exact burst_tab_spec. Qed.
Print Assumptions c17_burst_len_table.

(* any accepted v1 Rx / v2 Rx / v2 Tx datagram with NOPE = 0 carries a burst whose length is the table entry of its MOD bits *)
Theorem c17_burst_len_by_mod : forall data v n, Forall (fun o => 0 <= o < 256) data -> lookup 9 v = Some (VInt 0) ->
  (decode true pdu_v1_rx data = Ok (v, n) \/ decode true pdu_v2_rx data = Ok (v, n) ->
     exists md bits, lookup 10 v = Some (VInt md) /\ lookup 5 v = Some (VBytes bits) /\ assocZ md burst_tab = Some (length bits)) /\
  (decode true pdu_v2_tx data = Ok (v, n) ->
     exists md bits, lookup 10 v = Some (VInt md) /\ lookup 8 v = Some (VBytes bits) /\ assocZ md burst_tab = Some (length bits)).
Proof.
  intros data v n Ho Hn. split; [intros [Hd|Hd]|intros Hd].
  - exact (burst_len_sem _ _ _ _ _ burst_v1rx Ho Hd Hn).
  - exact (burst_len_sem _ _ _ _ _ burst_v2rx Ho Hd Hn).
  - exact (burst_len_sem _ _ _ _ _ burst_v2tx Ho Hd Hn).
Qed.
Print Assumptions c17_burst_len_by_mod.

(* ... and with NOPE = 1 it carries no burst *)
Theorem c17_nope_no_burst : forall data v n, Forall (fun o => 0 <= o < 256) data -> lookup 9 v = Some (VInt 1) ->
  (decode true pdu_v1_rx data = Ok (v, n) \/ decode true pdu_v2_rx data = Ok (v, n) -> lookup 5 v = None) /\
  (decode true pdu_v2_tx data = Ok (v, n) -> lookup 8 v = None).
Proof.
  intros data v n Ho Hn. split; [intros [Hd|Hd]|intros Hd].
  - exact (nope_no_burst_sem _ _ _ _ _ burst_v1rx Ho Hd Hn).
  - exact (nope_no_burst_sem _ _ _ _ _ burst_v2rx Ho Hd Hn).
  - exact (nope_no_burst_sem _ _ _ _ _ burst_v2tx Ho Hd Hn).
Qed.
Print Assumptions c17_nope_no_burst.

(* ------------------------------------------------------------------ reserved bits *)
(* sent as zero: in the layouts above the RFU positions (bit 3 of the header octet, bit 6 of the second v2 header octet,
   the five upper bits of a sub-PDU's first octet) are 0; the Tx spare octets are the three literal zeros of tx2_layout *)
Theorem c17_reserved_zero : forall v tn ba tr, 0 <= v < 16 -> 0 <= tn < 8 -> 0 <= ba < 2 -> 0 <= tr < 64 ->
  Z.land (v * 16 + tn) 8 = 0 /\ Z.land (ba * 128 + tr) 64 = 0 /\ Z.land tn 248 = 0.
Proof. exact (fun v tn ba tr _ Ht _ Hr => reserved_zero v tn ba tr Ht Hr). Qed.
Print Assumptions c17_reserved_zero.

(* ignored on receipt: the RFU bits of the (main) header do not influence the decoder of any of the six PDUs *)
Theorem c17_reserved_ignored : forall chk h h2 rest, 0 <= h < 256 -> 0 <= h2 < 256 ->
  decode chk pdu_v0_rx (Z.lor h 8 :: rest) = decode chk pdu_v0_rx (h :: rest) /\
  decode chk pdu_v0_tx (Z.lor h 8 :: rest) = decode chk pdu_v0_tx (h :: rest) /\
  decode chk pdu_v1_rx (Z.lor h 8 :: rest) = decode chk pdu_v1_rx (h :: rest) /\
  decode chk pdu_v1_tx (Z.lor h 8 :: rest) = decode chk pdu_v1_tx (h :: rest) /\
  decode chk pdu_v2_rx (Z.lor h 8 :: Z.lor h2 64 :: rest) = decode chk pdu_v2_rx (h :: h2 :: rest) /\
  decode chk pdu_v2_tx (Z.lor h 8 :: Z.lor h2 64 :: rest) = decode chk pdu_v2_tx (h :: h2 :: rest).
Proof.
  exact (fun chk h h2 rest _ H2 =>
    conj (rfu_ignored01 chk 0 _ _ h rest v0rx_reflects) (conj (rfu_ignored01 chk 0 _ _ h rest v0tx_reflects)
   (conj (rfu_ignored01 chk 1 _ _ h rest v1rx_reflects) (conj (rfu_ignored01 chk 1 _ _ h rest v1tx_reflects)
   (conj (rfu_ignored2 chk _ _ h h2 rest H2 v2rx_reflects) (rfu_ignored2 chk _ _ h h2 rest H2 v2tx_reflects)))))).
Qed.
Print Assumptions c17_reserved_ignored.

(* ... and end to end through the sequence of batched sub-PDUs: rx2_layout_g m js / tx2_layout_g m a b c ks
   (Proofs/TrxdProtoRfu.v) are the documented layouts of c17_layout_v2 in which the first octet of the i-th sub-PDU is
   TN + 8 * j_i (its five RFU bits hold the arbitrary value j_i, each sub-PDU its own), and - for Tx - the three spare octets
   of the main part are a b c and those of the i-th sub-PDU are k_a k_b k_c of ks_i.  For ANY number of sub-PDUs such a
   datagram decodes to exactly the message, and to exactly the result, of the layout with zeros there. *)
Theorem c17_reserved_ignored_sub : forall chk,
  (forall m js, rx2_ok m -> length js = length (m_subs m) -> Forall (fun j => 0 <= j < 32) js ->
     decode chk pdu_v2_rx (rx2_layout_g m js) = Ok (rx2_fields m, length (rx2_layout m)) /\
     decode chk pdu_v2_rx (rx2_layout_g m js) = decode chk pdu_v2_rx (rx2_layout m)) /\
  (forall m ks, tx2_ok m -> length ks = length (x_subs m) -> Forall (fun k => 0 <= k_rfu k < 32 /\ k_a k = 0 /\ k_b k = 0 /\ k_c k = 0) ks ->
     decode chk pdu_v2_tx (tx2_layout_g m 0 0 0 ks) = Ok (tx2_fields m, length (tx2_layout m)) /\
     decode chk pdu_v2_tx (tx2_layout_g m 0 0 0 ks) = decode chk pdu_v2_tx (tx2_layout m)).
Proof. exact (fun chk => conj (fun m js Hm Hl _ => rx2_rfu_ignored chk m js Hm Hl) (fun m ks Hm Hl _ => tx2_reserved_ignored chk m 0 0 0 ks Hm Hl)). Qed.
Print Assumptions c17_reserved_ignored_sub.

(* the Tx spare octets (any integers; PDUv0Tx / PDUv1Tx have no spare octets), together with the sub-PDU RFU bits *)
Theorem c17_reserved_ignored_spare : forall chk m a b c ks,
  tx2_ok m -> length ks = length (x_subs m) -> Forall (fun k => 0 <= k_rfu k < 32) ks ->
  decode chk pdu_v2_tx (tx2_layout_g m a b c ks) = Ok (tx2_fields m, length (tx2_layout m)) /\
  decode chk pdu_v2_tx (tx2_layout_g m a b c ks) = decode chk pdu_v2_tx (tx2_layout m).
Proof. exact (fun chk m a b c ks Hm Hl _ => tx2_reserved_ignored chk m a b c ks Hm Hl). Qed.
Print Assumptions c17_reserved_ignored_spare.

(* with zeros in all those places the generalised layouts are the documented ones *)
Theorem c17_layout_g_zero :
  (forall m, rx2_layout_g m (map (fun _ => 0) (m_subs m)) = rx2_layout m) /\
  (forall m, tx2_layout_g m 0 0 0 (map (fun _ => {| k_rfu := 0; k_a := 0; k_b := 0; k_c := 0 |}) (x_subs m)) = tx2_layout m).
Proof. exact layout_g_zero. Qed.
Print Assumptions c17_layout_g_zero.

(* the same at the level of the field decoder, for arbitrary (not necessarily well-formed) input *)
Theorem c17_reserved_ignored_field :
  (forall recd recs e h h' h2 rest, 0 <= h < 256 -> 0 <= h' < 256 -> 0 <= h2 < 256 -> Z.land h 7 = Z.land h' 7 ->
     dec_field recd recs hdr2b e (h' :: h2 :: rest) = dec_field recd recs hdr2b e (h :: h2 :: rest)) /\
  (forall recd recs e a b c a' b' c' rest,
     dec_field recd recs (FSpare (LFix 3) PAlways 0) e (a :: b :: c :: rest) = Ok (e, 3%nat) /\
     dec_field recd recs (FSpare (LFix 3) PAlways 0) e (a' :: b' :: c' :: rest) = Ok (e, 3%nat)).
Proof. exact (conj (fun recd recs e h h' h2 rest _ _ => sub_rfu_ignored recd recs e h h' h2 rest) (fun recd recs e a b c a' b' c' rest => conj (spare_octets_ignored recd recs e a b c rest) (spare_octets_ignored recd recs e a' b' c' rest))). Qed.
Print Assumptions c17_reserved_ignored_field.

(* ------------------------------------------------------------------ wrong version *)
Theorem c17_wrong_version_rejected : forall chk h h2 rest, 0 <= h2 < 256 ->
  (Z.land (Z.shiftr h 4) 15 <> 0 -> decode chk pdu_v0_rx (h :: rest) = DecodeErr 0 /\ decode chk pdu_v0_tx (h :: rest) = DecodeErr 0) /\
  (Z.land (Z.shiftr h 4) 15 <> 1 -> decode chk pdu_v1_rx (h :: rest) = DecodeErr 0 /\ decode chk pdu_v1_tx (h :: rest) = DecodeErr 0) /\
  (Z.land (Z.shiftr h 4) 15 <> 2 -> decode chk pdu_v2_rx (h :: h2 :: rest) = DecodeErr 0 /\ decode chk pdu_v2_tx (h :: h2 :: rest) = DecodeErr 0).
Proof.
  exact (fun chk h h2 rest H2 =>
    conj (fun Hne => conj (wrong_version01 chk 0 _ _ h rest v0rx_reflects Hne) (wrong_version01 chk 0 _ _ h rest v0tx_reflects Hne))
   (conj (fun Hne => conj (wrong_version01 chk 1 _ _ h rest v1rx_reflects Hne) (wrong_version01 chk 1 _ _ h rest v1tx_reflects Hne))
         (fun Hne => conj (wrong_version2 chk _ _ h h2 rest H2 v2rx_reflects Hne) (wrong_version2 chk _ _ h h2 rest H2 v2tx_reflects Hne)))).
Qed.
Print Assumptions c17_wrong_version_rejected.

(* ------------------------------------------------------------------ the message codec's datagrams (Model/Trxd.v gen_tx / gen_rx) *)
(* Tx, versions 0 and 1, legacy padding on or off: accepted; fields identical EXCEPT that with legacy padding the burst
   field is the burst followed by the two padding octets (recorded finding c17-v0tx-legacy-pad-in-hard-bits) *)
Theorem c17_accepts_msg_codec_tx : forall legacy m b, Trxd.gen_tx legacy m = Trxd.Ok b ->
  exists fn tn pwr bu, Trxd.t_fn m = Some fn /\ Trxd.t_tn m = Some tn /\ Trxd.t_pwr m = Some pwr /\ Trxd.t_burst m = Some bu /\
    decode true (if Trxd.t_ver m =? 0 then pdu_v0_tx else pdu_v1_tx) b
      = Ok (tx_fields (Trxd.t_ver m) tn fn pwr (bu ++ (if legacy && (Trxd.t_ver m =? 0) then [0; 0] else [])), length b).
Proof. exact acc_tx. Qed.
Print Assumptions c17_accepts_msg_codec_tx.

(* Rx version 0, GMSK and EDGE, legacy padding on or off: accepted with identical fields (soft bits as the unsigned octets
   127 - s, the padding in 'pad').  The soft-bit length rule of the source enters only through the four table points
   rule_at 148 = 148, rule_at 150 = 148, rule_at 444 = 444, rule_at 446 = 444 (checked against Gen on every run) *)
Theorem c17_accepts_msg_codec_rx0 : forall legacy m b, Trxd.gen_rx legacy m = Trxd.Ok b -> Trxd.r_ver m = 0 ->
  (match Trxd.r_burst m with Some bs => Forall (fun s => -128 <= s <= 127) bs | None => True end) ->
  exists fn tn rssi toa bs, Trxd.r_fn m = Some fn /\ Trxd.r_tn m = Some tn /\ Trxd.r_rssi m = Some rssi /\ Trxd.r_toa m = Some toa /\
    Trxd.r_burst m = Some bs /\
    decode true pdu_v0_rx b = Ok (rx0_fields tn fn rssi toa (TrxdRxRT.usbits bs) (if legacy && (0 =? 0) then [0; 0] else []), length b).
Proof. exact acc_rx0_all. Qed.
Print Assumptions c17_accepts_msg_codec_rx0.

Theorem c17_v0rx_length_rule :
  rule_at 148 = Ok 148%nat /\ rule_at 150 = Ok 148%nat /\ rule_at 444 = Ok 444%nat /\ rule_at 446 = Ok 444%nat.
Proof. exact rule_points. Qed.
Print Assumptions c17_v0rx_length_rule.

(* Rx version 1: NOPE indications and every burst, except the MTS code GMSK-AB (index 2) with TSC set 1 *)
Theorem c17_accepts_msg_codec_rx1 : forall m b, Trxd.gen_rx false m = Trxd.Ok b \/ Trxd.gen_rx true m = Trxd.Ok b -> Trxd.r_ver m = 1 ->
  (match Trxd.r_burst m with Some bs => Forall (fun s => -128 <= s <= 127) bs | None => True end) ->
  exists fn tn rssi toa ci, Trxd.r_fn m = Some fn /\ Trxd.r_tn m = Some tn /\ Trxd.r_rssi m = Some rssi /\ Trxd.r_toa m = Some toa /\ Trxd.r_ci m = Some ci /\
    if Trxd.r_nope m
    then decode true pdu_v1_rx b = Ok (rx1_fields tn fn rssi toa 1 0 0 ci [], length b)
    else exists i s t bs, Trxd.r_mod m = Some i /\ Trxd.r_tset m = Some s /\ Trxd.r_tsc m = Some t /\ Trxd.r_burst m = Some bs /\
         (~ (i = 2%nat /\ s = 1) ->
          decode true pdu_v1_rx b = Ok (rx1_fields tn fn rssi toa 0 (Trxd.mod_coding i + s) t ci (TrxdRxRT.usbits bs), length b)).
Proof. exact acc_rx1. Qed.
Print Assumptions c17_accepts_msg_codec_rx1.

(* ------------------------------------------------------------------ refuted strengthenings = the defects of the pinned tree *)
(* c17-v0rx-legacy-gmsk-rejected: repaired in the source (fix commit 932bd90); the refuted lemma became c17_accepts_msg_codec_rx0 *)
(* c17-mts-0111-unknown *)
Theorem c17_mts_0111_unknown_refuted :
  assocZ (Trxd.mod_coding 2 + 1) burst_tab = None /\ burst_len_unknown = [7] /\
  decode true pdu_v1_rx ([16; 0; 0; 0; 0; 60; 0; 0; 56; 0; 0] ++ repeat 127 148) = DecodeErr 1.
Proof. exact mts_0111_unknown_refuted. Qed.
Print Assumptions c17_mts_0111_unknown_refuted.
(* c17-v0tx-legacy-pad-in-hard-bits *)
Theorem c17_v0tx_legacy_pad_refuted :
  decode true pdu_v0_tx ([0; 0; 0; 0; 0; 10] ++ repeat 1 148 ++ [0; 0]) = Ok (tx_fields 0 0 0 10 (repeat 1 148 ++ [0; 0]), 156%nat).
Proof. exact v0tx_legacy_pad_refuted. Qed.
Print Assumptions c17_v0tx_legacy_pad_refuted.

(* ------------------------------------------------------------------ non-vacuity: a v2 Rx PDU (8-PSK) with a NOPE sub-PDU and a GMSK-AB sub-PDU *)
Theorem c17_example : rx2_ok ex_rx2 /\ length (rx2_layout ex_rx2) = 620%nat /\ accepts pdu_v2_rx (rx2_fields ex_rx2) (rx2_layout ex_rx2).
Proof. exact (conj (proj1 ex_rx2_ok) (conj (proj2 ex_rx2_ok) ex_rx2_accepts)). Qed.
Print Assumptions c17_example.
