(* C14 - no datagram or capture content can crash the tools. Statements; the proofs apply lemmas of Proofs/. *)
From Coq Require Import ZArith List Bool.
From OBB Require Import Model.TrxIf Proofs.TrxIfP Proofs.TrxIfCtrlP.
From OBB Require Import Gen.FakeTrxConst Model.Trxd Model.Trx Proofs.TrxdTotal Proofs.TrxInv Proofs.TrxTick Proofs.TrxSession.
From OBB Require Import Model.Dump Proofs.DumpTotal.
Import ListNotations.
Open Scope Z_scope.

(* the message parser: whatever the octets, the result is a message or ValueError - never another exception (indexing, struct, attribute) *)
Theorem c14_parse_only_valueerror : forall octets, parse_tx octets <> Crash /\ parse_rx octets <> Crash.
Proof. exact (fun o => conj (parse_tx_total o) (parse_rx_total o)). Qed.
Print Assumptions c14_parse_only_valueerror.

(* a data datagram (any octets) is either enqueued (it parses, the version matches, the transceiver runs) or has no effect at all *)
Theorem c14_data_dropped_no_effect : forall t data, wf_trx t -> Forall (fun b => 0 <= b < 256) data ->
  let '(t', acc) := recv_data t data in
  wf_trx t' /\ (acc = false -> t' = t) /\
  (acc = true -> exists m, parse_tx (firstn (Z.to_nat data_recv_size) data) = Ok m /\ t_ver m = x_ver t /\ x_run t = true /\ t' = set_q t (x_q t ++ [m])).
Proof. exact recv_data_inv. Qed.
Print Assumptions c14_data_dropped_no_effect.

(* a control datagram (any octets, ASCII or not, any length): handle_rx returns normally and the world stays in the reachable region *)
Theorem c14_ctrl_total : forall w i data draws, wf_world w -> (i < length (w_trx w))%nat ->
  let '(w', out, _) := handle_rx w i data draws in wf_world w' /\ length (w_trx w') = length (w_trx w) /\ out <> RCrashed.
Proof. exact handle_rx_inv. Qed.
Print Assumptions c14_ctrl_total.

(* a command with an unparsable (non-numeric ...) argument is answered with an error status and changes nothing *)
Theorem c14_bad_argument_no_effect : forall w i req draws w' d', (i < length (w_trx w))%nat ->
  parse_cmd w i req draws = (w', CBadInt, d') -> w' = w /\ d' = draws.
Proof. intros w i req draws w' d' _ E. exact (error_reply_no_effect _ _ _ _ _ _ _ E I). Qed.
Print Assumptions c14_bad_argument_no_effect.

(* the clock tick on any reachable world: no exception in the clock thread *)
Theorem c14_tick_total : forall w fn draws, wf_world w -> 0 <= fn ->
  let '(w', _, out) := tick w fn draws in o_crash out = false /\ wf_world w' /\ length (w_trx w') = length (w_trx w).
Proof. exact tick_ok. Qed.
Print Assumptions c14_tick_total.

(* "goes on serving": from the freshly started application (any configuration), NO history of control datagrams, data datagrams and
   clock ticks - hostile or not - ever crashes a handler or the clock thread; after every prefix the world is still reachable, so every
   later valid command and burst is served by the same theorems (C02 C03 C05 C10 C18) *)
Theorem c14_no_history_crashes : forall cfgs ops,
  let w0 := {| w_trx := map trx0 cfgs; w_links := []; w_gen := false |} in
  Forall (op_ok (length cfgs)) ops ->
  let '(w, _, crashed) := fold_left sstep ops (w0, [], false) in crashed = false /\ wf_world w /\ length (w_trx w) = length cfgs.
Proof. exact no_history_crashes. Qed.
Print Assumptions c14_no_history_crashes.

(* capture files: whatever octets the file holds, a full read, any skip/count read and any random access return normally (a list, a
   'range error' False or None) - no exception, and the read loop terminates *)
Theorem c14_dump_total : forall (f : list Z) (skip count : option Z) (idx : Z),
  parse_all f skip count <> Crash /\ parse_all f skip count <> VErr /\ parse_all f skip count <> Ok POutOfFuel /\
  Dump.parse_msg f idx <> Crash /\ Dump.parse_msg f idx <> VErr.
Proof. exact dump_total. Qed.
Print Assumptions c14_dump_total.

(* trxcon, TRXD socket: no datagram makes trx_data_rx_cb read outside its buffer *)
Theorem c14_c_data_safe : forall d, c_data_rx d <> RxOOB.
Proof. exact c_data_rx_safe. Qed.
Print Assumptions c14_c_data_safe.

(* trxcon, TRXC socket: no datagram, with or without a pending command, makes trx_ctrl_read_cb dereference NULL, read outside the
   received octets or use an uninitialised value *)
Theorem c14_c_ctrl_safe : forall pending d, cr_unsafe (c_ctrl_rsp pending d) = false.
Proof. exact c_ctrl_rsp_safe. Qed.
Print Assumptions c14_c_ctrl_safe.

(* a refused command - negative status, whatever the verb and the arguments - changes nothing at all: not the addressed
   transceiver, not any other, not the pending random draws (checked on the implementation after every refused or ignored
   control datagram of every session: state digest before = state digest after) *)
Theorem c14_refused_no_effect : forall w i req draws w' rc ex d', (i < length (w_trx w))%nat ->
  parse_cmd w i req draws = (w', CStatus rc ex, d') -> rc < 0 -> w' = w /\ d' = draws.
Proof. intros w i req draws w' rc ex d' _ E Hrc. exact (error_reply_no_effect _ _ _ _ _ _ _ E Hrc). Qed.
Print Assumptions c14_refused_no_effect.

(* huge arguments: the artificial reply delay (FAKE_TRXC_DELAY <ms>; CTRLInterface.send_response sleeps rsp_delay_ms / 1000 s before EVERY
   later reply) is the one integer argument that reaches a call with a bounded domain - time.sleep() raises OverflowError above
   2^63-1 ns.  The sleep is part of the model's handle_rx (a delay that overflows it is the crash outcome RCrashed, so c14_ctrl_total and
   c14_no_history_crashes above cover it); here the handler's side: every value beyond the last one time.sleep() takes is refused with
   -1 and changes nothing, every accepted value is stored and can be slept, and 9223372036854 ms is exactly the boundary *)
Theorem c14_delay_beyond_sleep_refused : forall s a, 9223372036854 < a ->
  fake_handler s [v_FAKE_TRXC_DELAY; py_str a] = (s, Some (CStatus (-1) [])).
Proof. exact delay_too_long_refused. Qed.
Print Assumptions c14_delay_beyond_sleep_refused.

Theorem c14_delay_accepted_sleepable : forall s a, a <= 9223372036854 ->
  s_delay (fst (fake_handler s [v_FAKE_TRXC_DELAY; py_str a])) = a /\ snd (fake_handler s [v_FAKE_TRXC_DELAY; py_str a]) = None /\ sleep_overflows a = false.
Proof. exact delay_accepted_sleepable. Qed.
Print Assumptions c14_delay_accepted_sleepable.

Theorem c14_sleep_boundary : forall ms, sleep_overflows ms = true <-> 9223372036855 <= ms.
Proof. exact sleep_boundary. Qed.
Print Assumptions c14_sleep_boundary.

(* on every reachable world the reply to a command is sent, whatever delay earlier commands left behind *)
Theorem c14_reply_sent_after_delay : forall w' i b, wf_world w' ->
  match nth_error (w_trx w') i with
  | Some t' => if sleep_overflows (s_delay (x_sim t')) then RCrashed else RReply b
  | None => RReply b end = RReply b.
Proof. exact send_reply. Qed.
Print Assumptions c14_reply_sent_after_delay.

(* trxcon, TRXD socket, what goes UP: whatever octets arrive, a burst indication handed to the scheduler carries a timeslot 0..7, a frame
   number inside the hyperframe and exactly 148 or 444 soft bits in -127..127 - never more than the scheduler's 444-entry burst array
   holds (trxcon asserts on a longer burst and aborts) *)
Theorem c14_c_data_indication_shape : forall d tn fn rssi toa bits, Forall (fun b => 0 <= b < 256) d -> c_data_rx d = RxInd tn fn rssi toa bits ->
  0 <= tn <= 7 /\ 0 <= fn < 2715648 /\ -128 <= rssi <= 127 /\ -32768 <= toa <= 32767
  /\ (length bits = 148%nat \/ length bits = 444%nat) /\ Forall (fun s => -127 <= s <= 127) bits.
Proof. exact c_data_rx_ind_shape. Qed.
Print Assumptions c14_c_data_indication_shape.
