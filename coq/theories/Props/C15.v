(* C15 - capture files return exactly what was stored, even after truncation. Statements; the proofs apply lemmas of Proofs/.
   Model: Model/Dump.v (DATADump / DATADumpFile of data_dump.py over the TRXD codec of Model/Trxd.v).
   vmsg m   : m is a TxMsg / RxMsg within the protocol ranges (spec_tx / spec_rx of C01, any version, modulation, NOPE),
              Rx soft bits in [-127, 127];
   cmsg m   : the fields m carries on the wire (all of a TxMsg; 'carried' for an RxMsg: what its header version transports);
   file ms  : the concatenated records of ms, record = what dump_msg returns;
   complete ms k : the messages of ms whose records end at or before octet k of file ms. *)
From Coq Require Import ZArith List.
From OBB Require Import Gen.TrxdConst Model.Trxd Model.Dump Proofs.TrxdTx Proofs.TrxdRx Proofs.TrxdRxRT Proofs.DumpP Model.DumpHist Proofs.DumpHistP.
Import ListNotations.
Open Scope Z_scope.

(* the regenerated framing constants are the format's: tag 1 = Tx, tag 2 = Rx, 3-octet header *)
Theorem c15_constants : dump_tag_tx = 1 /\ dump_tag_rx = 2 /\ dump_hdr_length = 3.
Proof. repeat split; reflexivity. Qed.
Print Assumptions c15_constants.

(* record = tag octet, 16-bit big-endian length, TRXD message without legacy padding; the length is at most 753 < 65536,
   so the two length octets are exact *)
Theorem c15_record_format : forall m, vmsg m ->
  exists raw, (match m with inl t => gen_tx false t | inr r => gen_rx false r end) = Ok raw /\ (length raw <= 753)%nat /\
              dump_msg m = Ok ([match m with inl _ => 1 | inr _ => 2 end; Z.of_nat (length raw) / 256; Z.of_nat (length raw) mod 256] ++ raw).
Proof. intros m H. destruct (rec_good m H) as [raw [A [B [C _]]]]. exists raw. destruct m; auto. Qed.
Print Assumptions c15_record_format.

(* append_all writes the records one after the other behind what the file held, and does not raise *)
Theorem c15_append : forall ms, Forall vmsg ms -> forall f0,
  append_all f0 ms = (f0 ++ file ms, Ok tt) /\ file ms = concat (map rec_of ms).
Proof. intros ms H f0. rewrite <- (app_nil_r ms) at 1. rewrite (append_app ms [] f0 H). split; reflexivity. Qed.
Print Assumptions c15_append.

(* a message outside the protocol ranges raises ValueError out of append_all; everything before it is in the file *)
Theorem c15_append_invalid : forall ms1 m ms2 f0, Forall vmsg ms1 ->
  (match m with inl t => ~ spec_tx t | inr r => ~ spec_rx r end) ->
  append_all f0 (ms1 ++ m :: ms2) = (f0 ++ file ms1, VErr).
Proof.
  intros ms1 m ms2 f0 H Hm. rewrite (append_app ms1 (m :: ms2) f0 H). cbn [append_all]. unfold append_msg.
  rewrite (dump_invalid m Hm). reflexivity.
Qed.
Print Assumptions c15_append_invalid.

(* full read: the messages come back in order, equal in every carried field *)
Theorem c15_full_read : forall ms, Forall vmsg ms ->
  exists ms', parse_all (file ms) None None = Ok (PList ms') /\ map cmsg ms' = map cmsg ms.
Proof. exact full_read. Qed.
Print Assumptions c15_full_read.

(* random access: parse_msg(i) is the i-th message for 0 <= i < n and None for every i >= n *)
Theorem c15_index : forall ms i, Forall vmsg ms ->
  (0 <= i < Z.of_nat (length ms) ->
     exists m m', nth_error ms (Z.to_nat i) = Some m /\ parse_msg (file ms) i = Ok (OMsg m') /\ cmsg m' = cmsg m) /\
  (Z.of_nat (length ms) <= i -> parse_msg (file ms) i = Ok ONone).
Proof. exact index_read. Qed.
Print Assumptions c15_index.

(* skip / count: skip absent or <= n (skip = n gives the empty list, not the range error): the messages from 'skip' on,
   limited to the first 'count' of them when count >= 1 (count <= 0 never matches len(result) and limits nothing);
   skip > n: the value False *)
Theorem c15_slice : forall ms skip count, Forall vmsg ms ->
  (match skip with Some s => s <= Z.of_nat (length ms) | None => True end ->
     exists ms', parse_all (file ms) skip count = Ok (PList ms') /\
       map cmsg ms' = map cmsg (let rest := skipn (match skip with Some s => Z.to_nat s | None => 0%nat end) ms in
                                match count with Some c => if 1 <=? c then firstn (Z.to_nat c) rest else rest | None => rest end)) /\
  (match skip with Some s => Z.of_nat (length ms) < s | None => False end -> parse_all (file ms) skip count = Ok PFalse).
Proof.
  intros ms skip count H. destruct (read_slice ms [] skip count H stops_nil) as [A [_ C]]. rewrite app_nil_r in A, C.
  split; [exact A|]. intros Hs. apply C. destruct skip; [split; [exact Hs|left; repeat constructor]|exact Hs].
Qed.
Print Assumptions c15_slice.

(* outside the property's quantifier, as coded: a negative index / skip is the same as 0 (range(idx) is empty) *)
Theorem c15_negative_is_zero : forall f i count, i <= 0 ->
  parse_msg f i = parse_msg f 0 /\ parse_all f (Some i) count = parse_all f None count.
Proof. intros f i count H. destruct i as [|p|p]; [split; reflexivity|destruct (H eq_refl)|split; reflexivity]. Qed.
Print Assumptions c15_negative_is_zero.

(* complete ms k is the prefix of ms of the j messages whose records fit into the first k octets (the j+1-th does not) *)
Theorem c15_complete_spec : forall ms k,
  exists j, complete ms k = firstn j ms /\ (j <= length ms)%nat /\ (length (file (firstn j ms)) <= k)%nat /\
            ((j < length ms)%nat -> (k < length (file (firstn (S j) ms)))%nat).
Proof.
  intros ms k. exists (ncomplete (map rec_of ms) k). split; [reflexivity|].
  pose proof (ncomplete_le (map rec_of ms) k) as Hle. rewrite map_length in Hle. split; [exact Hle|].
  destruct (ncomplete_spec (map rec_of ms) k) as [A B]. unfold file. rewrite <- !firstn_map. split; [exact A|].
  intros Hj. apply B. rewrite map_length. exact Hj.
Qed.
Print Assumptions c15_complete_spec.

(* truncation at EVERY octet offset k: a full read returns exactly the completely written messages, parse_msg(i) the i-th
   of them and None beyond; no exception, no False, no fuel exhaustion *)
Theorem c15_truncation : forall ms k, Forall vmsg ms ->
  (exists ms', parse_all (firstn k (file ms)) None None = Ok (PList ms') /\ map cmsg ms' = map cmsg (complete ms k)) /\
  (forall i, 0 <= i < Z.of_nat (length (complete ms k)) ->
     exists m m', nth_error (complete ms k) (Z.to_nat i) = Some m /\
                  parse_msg (firstn k (file ms)) i = Ok (OMsg m') /\ cmsg m' = cmsg m) /\
  (forall i, Z.of_nat (length (complete ms k)) <= i -> parse_msg (firstn k (file ms)) i = Ok ONone).
Proof.
  intros ms k H. destruct (cut_file ms k H) as [Hc [t [-> Ht]]]. split; [exact (proj1 (read_slice _ t None None Hc Ht) I)|].
  split; intros i; apply (read_index _ t i Hc Ht).
Qed.
Print Assumptions c15_truncation.

(* skip / count on a cut file select from the complete messages.  One deviation from the uncut case, stated exactly:
   when skip is one more than the number of complete messages and at least 3 octets (a whole header) of the unfinished
   record survive, _seek2msg reads that header, seeks beyond the end of the file without noticing and reports success,
   so parse_all returns [] where it returns False for every other skip beyond the complete messages. *)
Theorem c15_truncation_slice : forall ms k skip count, Forall vmsg ms ->
  let cs := complete ms k in
  let rest := (length (firstn k (file ms)) - length (file cs))%nat in
  (match skip with Some s => s <= Z.of_nat (length cs) | None => True end ->
     exists ms', parse_all (firstn k (file ms)) skip count = Ok (PList ms') /\
       map cmsg ms' = map cmsg (let r := skipn (match skip with Some s => Z.to_nat s | None => 0%nat end) cs in
                                match count with Some c => if 1 <=? c then firstn (Z.to_nat c) r else r | None => r end)) /\
  (match skip with Some s => s = Z.of_nat (length cs) + 1 /\ (3 <= rest)%nat | None => False end ->
     parse_all (firstn k (file ms)) skip count = Ok (PList [])) /\
  (match skip with Some s => Z.of_nat (length cs) < s /\ ((rest < 3)%nat \/ Z.of_nat (length cs) + 1 < s) | None => False end ->
     parse_all (firstn k (file ms)) skip count = Ok PFalse).
Proof.
  intros ms k skip count H. cbv zeta. destruct (cut_file ms k H) as [Hc [t [-> Ht]]].
  rewrite app_length, Nat.add_comm, Nat.add_sub. exact (read_slice _ t skip count Hc Ht).
Qed.
Print Assumptions c15_truncation_slice.

(* a record with a sound header whose body does not parse (the value False of _parse_msg) is skipped by parse_all *)
Theorem c15_unparsable_skipped : forall is_rx raw rest fuel count acc, Z.of_nat (length raw) < 65536 ->
  parse_body is_rx raw = OFalse ->
  pa_loop (S fuel) (([if is_rx then 2 else 1; Z.of_nat (length raw) / 256; Z.of_nat (length raw) mod 256] ++ raw) ++ rest) 0 count acc
  = pa_loop fuel rest 0 count acc.
Proof.
  intros is_rx raw rest fuel count acc Hn Hp. etransitivity; [exact (pa_rec is_rx raw rest fuel count acc Hn)|].
  rewrite Hp. reflexivity.
Qed.
Print Assumptions c15_unparsable_skipped.

(* the hypotheses are met by a mixed capture (Tx v1 8-PSK, Rx v1 NOPE, Rx v1 GMSK-AB, Rx v0): 788 octets; cut one octet
   short the last message is gone; cut at 452 / 453 the first record is incomplete / complete *)
Theorem c15_nonvacuous : Forall vmsg ex_ms /\ length (file ex_ms) = 788%nat /\ complete ex_ms 787 = firstn 3 ex_ms
  /\ complete ex_ms 788 = ex_ms /\ complete ex_ms 452 = [] /\ complete ex_ms 453 = [inl ex_tx].
Proof. exact (conj ex_valid ex_cuts). Qed.
Print Assumptions c15_nonvacuous.

(* ---- histories on ONE capture object: appends (DAppend), reads by index (DIndex) and full / sliced reads (DAll) in any order.
   drun f ops = (file afterwards, answers); appended ops = the messages the history appended, in order ---- *)

(* the capture always holds the initial messages followed by every appended one - reads change nothing *)
Theorem c15_history_state : forall ops ms0, Forall vmsg (appended ops) ->
  fst (drun (file ms0) ops) = file (ms0 ++ appended ops).
Proof. exact hist_state. Qed.
Print Assumptions c15_history_state.

(* the operation following ANY history answers as it would on a capture holding exactly what was stored so far *)
Theorem c15_history_answer : forall pre o post ms0, Forall vmsg (appended pre) ->
  nth_error (snd (drun (file ms0) (pre ++ o :: post))) (length pre) = Some (snd (dstep (file (ms0 ++ appended pre)) o)).
Proof. exact hist_answer. Qed.
Print Assumptions c15_history_answer.

(* hence random access after any mix of appends and reads: the i-th of everything stored so far, None beyond *)
Theorem c15_history_index : forall pre i post ms0, Forall vmsg ms0 -> Forall vmsg (appended pre) ->
  let ms := ms0 ++ appended pre in
  let ans := nth_error (snd (drun (file ms0) (pre ++ DIndex i :: post))) (length pre) in
  (0 <= i < Z.of_nat (length ms) -> exists m m', nth_error ms (Z.to_nat i) = Some m /\ ans = Some (OIndex (Ok (OMsg m'))) /\ cmsg m' = cmsg m) /\
  (Z.of_nat (length ms) <= i -> ans = Some (OIndex (Ok ONone))).
Proof.
  intros pre i post ms0 H0 Hp ms ans. subst ans. rewrite (hist_answer pre (DIndex i) post ms0 Hp). cbn [dstep snd]. fold ms.
  destruct (index_read ms i (proj2 (Forall_app _ _ _) (conj H0 Hp))) as [A B]. split; intros Hi.
  - destruct (A Hi) as [m [m' [E1 [E2 E3]]]]. exists m, m'. rewrite E2. repeat split; assumption.
  - rewrite (B Hi). reflexivity.
Qed.
Print Assumptions c15_history_index.

(* and a full read after any history returns everything stored so far, in order *)
Theorem c15_history_full : forall pre post ms0, Forall vmsg ms0 -> Forall vmsg (appended pre) ->
  let ms := ms0 ++ appended pre in
  exists ms', nth_error (snd (drun (file ms0) (pre ++ DAll None None :: post))) (length pre) = Some (OAll (Ok (PList ms'))) /\ map cmsg ms' = map cmsg ms.
Proof.
  intros pre post ms0 H0 Hp ms. rewrite (hist_answer pre (DAll None None) post ms0 Hp). cbn [dstep snd]. fold ms.
  destruct (full_read ms (proj2 (Forall_app _ _ _) (conj H0 Hp))) as [ms' [E1 E2]]. exists ms'. rewrite E1. split; [reflexivity|exact E2].
Qed.
Print Assumptions c15_history_full.

(* non-vacuity: read, append, read the appended message by its index on the example capture *)
Theorem c15_history_nonvacuous :
  exists m, nth_error ex_ms 0 = Some m /\ Forall vmsg (appended [DIndex 0; DAppend m]) /\
    (match nth_error (snd (drun (file ex_ms) ([DIndex 0; DAppend m] ++ DIndex 4 :: [DAll None None]))) 2 with
     | Some (OIndex (Ok (OMsg m'))) => cmsg m' = cmsg m
     | _ => False
     end) /\
    length (fst (drun (file ex_ms) [DIndex 0; DAppend m; DIndex 4])) = (length (file ex_ms) + length (rec_of m))%nat.
Proof. exact hist_example. Qed.
Print Assumptions c15_history_nonvacuous.
