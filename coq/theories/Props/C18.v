(* C18 - burst-loss simulation drops exactly the requested bursts. Statements; the proofs apply lemmas of Proofs/. *)
From Coq Require Import ZArith List Bool.
From OBB Require Import Base.Dec Gen.TrxdConst Gen.FakeTrxConst Model.Trxd Model.Trx
  Proofs.TrxDrop Proofs.TrxMeta Proofs.TrxDropStream.
Import ListNotations.
Open Scope Z_scope.

(* 'CMD FAKE_DROP n' / 'CMD FAKE_DROP n p' (decimal arguments): negative amounts and non-positive periods are answered -1 and
   change nothing; otherwise status 0, the counter is n and the period p (1 when absent); no other parameter changes *)
Theorem c18_fake_drop_args : forall s n p,
  fake_handler s [v_FAKE_DROP; py_str n; py_str p] =
    (if (n <? 0) || (p <=? 0) then (s, Some (CStatus (-1) []))
     else (sim_set s (s_muted s) (s_fake_rssi s) (s_txp s) (s_att s) (s_toa s) (s_toa_thr s) (s_rssi s) (s_rssi_thr s) (s_ci s) (s_ci_thr s) (s_ta s) n p (s_delay s),
           Some (CStatus 0 [])))
  /\ fake_handler s [v_FAKE_DROP; py_str n] =
    (if n <? 0 then (s, Some (CStatus (-1) []))
     else (sim_set s (s_muted s) (s_fake_rssi s) (s_txp s) (s_att s) (s_toa s) (s_toa_thr s) (s_rssi s) (s_rssi_thr s) (s_ci s) (s_ci_thr s) (s_ta s) n 1 (s_delay s),
           Some (CStatus 0 []))).
Proof. exact (fun s n p => conj (fake_drop2 s _ _ n p (py_int_str n) (py_int_str p)) (fake_drop1 s _ n (py_int_str n))). Qed.
Print Assumptions c18_fake_drop_args.

(* the counter/filter: with n = remaining amount and p = period, burst k of ANY stream of frame numbers is suppressed iff
   its frame number is a multiple of p and fewer than n such bursts came before it; afterwards n - (number of multiples) remain *)
Theorem c18_exact_drops : forall fns s, 0 <= s_drop s ->
  length (fst (drop_stream s fns)) = length fns /\
  (forall k, (k < length fns)%nat ->
     nth k (fst (drop_stream s fns)) false = ((nth k fns 0 mod s_period s =? 0) && (Z.of_nat (hits (s_period s) (firstn k fns)) <? s_drop s))) /\
  s_drop (snd (drop_stream s fns)) = Z.max 0 (s_drop s - Z.of_nat (hits (s_period s) fns)) /\ s_period (snd (drop_stream s fns)) = s_period s.
Proof. exact drop_stream_spec. Qed.
Print Assumptions c18_exact_drops.

(* a receiving transceiver (not muted, reachable simulation parameters) handling any stream of bursts: the bursts that do not reach
   its L1 as a burst are exactly those the counter/filter selects, the state advances accordingly, nothing crashes *)
Theorem c18_stream : forall ms dst src ver draws,
  sim_ok dst -> s_muted dst = false -> Forall (fun m => t_burst m <> None) ms ->
  let '(ds, dst', _) := handle_stream dst src ver ms draws in
  map suppressed ds = fst (drop_stream dst (map (fun m => oz (t_fn m)) ms))
  /\ dst' = snd (drop_stream dst (map (fun m => oz (t_fn m)) ms)) /\ ~ In DCrash ds.
Proof. exact stream_drops. Qed.
Print Assumptions c18_stream.

(* a suppressed burst (receiver muted, sender muted i.e. no burst bits, or selected by FAKE_DROP): nothing at all for a version-0
   recipient, otherwise the NOPE indication is what is handed to send_msg; mute does not consume the FAKE_DROP counter *)
Theorem c18_suppressed_shape : forall dst src sm msg draws,
  (s_muted dst = true \/ r_nope msg = true ->
     handle_data dst src sm msg draws = (dst, if r_ver msg <? 1 then Silent None else send_out false (nope_msg msg), draws)) /\
  (s_muted dst = false -> r_nope msg = false -> fst (sim_drop dst (oz (r_fn msg))) = true ->
     handle_data dst src sm msg draws =
       (snd (sim_drop dst (oz (r_fn msg))), if r_ver msg <? 1 then Silent None else send_out false (nope_msg msg), draws)).
Proof. exact (fun dst src sm msg draws => conj (handle_suppressed dst src sm msg draws) (handle_dropped dst src sm msg draws)). Qed.
Print Assumptions c18_suppressed_shape.

(* the NOPE indication: exactly one datagram; it parses to NOPE, no burst bits, RSSI -110, ToA256 0, C/I -30, same FN and TN *)
Theorem c18_nope_shape : forall msg, r_ver msg = 1 ->
  (exists f, r_fn msg = Some f /\ 0 <= f <= 2715647) -> (exists t, r_tn msg = Some t /\ 0 <= t <= 7) ->
  exists b, send_out false (nope_msg msg) = Sent b (nope_msg msg) /\
    exists m', parse_rx b = Ok m' /\ r_nope m' = true /\ r_burst m' = None /\ r_rssi m' = Some (-110) /\ r_toa m' = Some 0 /\ r_ci m' = Some (-30)
               /\ r_fn m' = r_fn msg /\ r_tn m' = r_tn msg /\ r_ver m' = 1.
Proof. exact nope_sent. Qed.
Print Assumptions c18_nope_shape.

(* RF mute on the receiving side: every burst of any stream is suppressed, state and counter untouched; version 0: nothing emitted *)
Theorem c18_mute_all : forall ms dst src ver draws, s_muted dst = true ->
  let '(ds, dst', dr') := handle_stream dst src ver ms draws in
  dst' = dst /\ dr' = draws /\ Forall (fun d => suppressed d = true \/ d = DCrash) ds
  /\ (ver = 0 -> ds = map (fun _ => Silent None) ms).
Proof.
  intros ms dst src ver draws Hm. pose proof (stream_muted_all ms dst src ver draws Hm) as H.
  destruct (handle_stream dst src ver ms draws) as [[ds dst'] dr']. destruct H as [H1 [H2 [H3 H4]]].
  repeat split; try assumption. exact (Forall_impl _ (fun d => @or_introl _ _) H3).
Qed.
Print Assumptions c18_mute_all.
