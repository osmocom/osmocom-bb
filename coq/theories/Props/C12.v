(* C12 - power state, child transceivers and clock distribution stay consistent. Statements; the proofs apply lemmas of Proofs/. *)
From Coq Require Import ZArith List Bool.
From OBB Require Import Model.Trxd Model.Trx Proofs.TrxMeta Proofs.TrxInv Proofs.TrxPower Proofs.TrxPowerHist.
Import ListNotations.
Open Scope Z_scope.

(* one power event of transceiver i (its own successful POWERON / POWEROFF): the affected transceivers - itself, and its children
   when it is a parent with child management - get the new power state; everybody else is untouched *)
Theorem c12_power_event : forall w i on t k, nth_error (w_trx w) i = Some t ->
  nth_error (w_trx (power_event w i on)) k =
  if mem_nat k (affected t i) then option_map (power_one on) (nth_error (w_trx w) k) else nth_error (w_trx w) k.
Proof. exact power_event_nth. Qed.
Print Assumptions c12_power_event.

(* ... and power-off forgets the hopping configuration and all queued bursts, nothing else changes but the power flag *)
Theorem c12_poweroff_forgets : forall on t, x_run (power_one on t) = on /\ x_rx (power_one on t) = x_rx t /\ x_tx (power_one on t) = x_tx t
  /\ x_ver (power_one on t) = x_ver t /\ x_sim (power_one on t) = x_sim t /\ x_cfg (power_one on t) = x_cfg t
  /\ (on = false -> x_q (power_one on t) = [] /\ x_fh (power_one on t) = None)
  /\ (on = true -> x_q (power_one on t) = x_q t /\ x_fh (power_one on t) = x_fh t).
Proof. exact power_one_fields. Qed.
Print Assumptions c12_poweroff_forgets.

(* after ANY sequence of power events a transceiver is running iff the last event that affected it (its own or its parent's) was a power-on *)
Theorem c12_running_is_last_effective : forall hist w j t,
  nth_error (w_trx w) j = Some t ->
  exists t', nth_error (w_trx (fold_left (fun w e => power_event w (fst e) (snd e)) hist w)) j = Some t'
             /\ x_cfg t' = x_cfg t
             /\ x_run t' = eff_run (map x_cfg (w_trx w)) (x_run t) hist j
             /\ map x_cfg (w_trx (fold_left (fun w e => power_event w (fst e) (snd e)) hist w)) = map x_cfg (w_trx w).
Proof. exact power_events_run. Qed.
Print Assumptions c12_running_is_last_effective.

(* a control datagram changes the power state only through such an event: POWEROFF always, POWERON only when the transceiver is not
   running and is tuned or hopping (else status -1 and nothing happens) *)
Theorem c12_only_power_commands : forall w i req draws, (i < length (w_trx w))%nat ->
  let '(w', r, _) := parse_cmd w i req draws in
  same_power w w' \/ (exists w1 on, same_power w w1 /\ w' = power_event w1 i on /\ r = CStatus 0 [] /\
                      (on = true -> exists t1, nth_error (w_trx w1) i = Some t1 /\ x_run t1 = false /\ ready t1 = true)).
Proof. intros w i req draws _. apply parse_cmd_power. Qed.
Print Assumptions c12_only_power_commands.

(* invariant over ALL control datagram histories (well formed or not) on any configuration whose children own no clock:
   clock indications go to exactly the clock links of running clock-owning transceivers, without duplicates,
   and the shared generator runs iff there is at least one *)
Theorem c12_clock_links_invariant : forall w i data draws, cfg_ok w -> links_inv w -> (i < length (w_trx w))%nat ->
  let '(w', _, _) := handle_rx w i data draws in cfg_ok w' /\ links_inv w'.
Proof. intros w i data draws Hc Hl _. exact (handle_rx_links w i data draws Hc Hl). Qed.
Print Assumptions c12_clock_links_invariant.

(* port plan within one base port: all sockets distinct *)
Theorem c12_ports : forall base i j, 0 <= i -> 0 <= j ->
  port_ctrl base i <> port_data base j /\ port_clck base <> port_ctrl base i /\ port_clck base <> port_data base i
  /\ (i <> j -> port_ctrl base i <> port_ctrl base j /\ port_data base i <> port_data base j).
Proof. exact ports_distinct. Qed.
Print Assumptions c12_ports.
