(* C08 - the firmware TDMA scheduler runs each item exactly in its scheduled frame. Statements; the proofs apply lemmas of Proofs/.
   Model: Model/TdmaSched.v (tdma_sched.c, uint8/uint16/int16 arithmetic explicit; first 13 theorems: callbacks that do not touch the
   scheduler = pure functions of the item; theorems c08_sp_*: callbacks that call tdma_schedule / tdma_sched_reset while execute runs).
   Vocabulary (Proofs/TdmaSchedSpec.v, literal 25 buckets x 8 items):
     wf st            25 buckets, 0 <= cur < 25, every bucket <= 8 items     cbs_ok st   no stored NULL callback
     bucket_due st d  the items due in d frames = bucket (cur + d) mod 25, in storing order
     op_ok o          OSched N it: 0 <= N < 25, cb <> NULL;  OSet N set p3: END_SET-terminated, N + number of END_FRAMEs < 25
     refines st m     for every d in 0..24, bucket_due st d is a permutation of the items with due-in = d of the multiset m
   "callbacks that report success" = forall x, 0 <= rcf x (tdma_sched_execute tests rc < 0).
   Re-entrant part (theorems c08_sp_*, Proofs/TdmaSchedSpawnP.v): tdma_sched_execute_sp / run_sp thread the scheduler through the callbacks;
     callback 15 calls tdma_schedule(p2, child_of it) and callback 16 calls tdma_sched_reset() first, from inside execute; both return 0.
     plain it       i_cb it <> 15 /\ i_cb it <> 16 (does not use the scheduler)      childlike it   2 <= i_cb it <= 9 (what child_of makes)
     no16 it        i_cb it <> 16           all_st P st / all_op P o   every stored item / every item the operation schedules satisfies P
     calls lg       the callbacks invoked, in order (log entries ECall); ESpawn N child rc = a callback called tdma_schedule(N, child) and got rc;
                    EReset n = a callback called tdma_sched_reset() and n items were stored afterwards
     spawn_phase rcf st xs   the callbacks xs invoked one after the other on the state their predecessors left (final state, log)
     lift_x / lift_obs       an execute result / observation of the model without scheduler-using callbacks, read as one of the re-entrant model.
   GSM-time one-shot events (theorems c08_gsm_*, Model/SchedGsmtime.v = sched_gsmtime.c, Proofs/SchedGsmtimeP.v):
     gstate = (g_act: pending events front to back, each (slot, si = item-set array, fn, p3); g_inact: free slot indices front to back)
     gs_ok gs       g_act sorted by fn (ascending, not strictly) and map e_slot g_act ++ g_inact is a permutation of the slots 0..15
     gop            GT o (an operation of the TDMA scheduler) | GReq si fn p3 | GExec fn | GReset;  g_run = history of both schedulers
     gwalk tgt l    the `if (fn == tgt) {hand over} if (fn > tgt) break;` walk of sched_gsmtime_execute alone: (list afterwards, events handed over)
     gexec_target fn = ((fn + 2) mod 2^32) mod 2715648 (`(fn + SCHEDULE_AHEAD) % GSM_MAX_FN` in uint32);  gexec_offset = 1 = SCHEDULE_AHEAD - SCHEDULE_LATENCY
     clock t j      the j consecutive frame numbers t, t+1, ... modulo the hyperframe 2715648 (what l1_sync passes to sched_gsmtime_execute)
     gs_step / gs_run   the event scheduler alone (it never reads the TDMA scheduler): state, and per execute (fn, events handed over)
     expand gs ops  what the TDMA scheduler sees: every GExec replaced by OSet 1 si p3 for each event it hands over, in order
     hand_over off ts evs   tdma_schedule_set(off, si, p3) for each event in order; qlog obs = events handed over per execute, from the observations
     frames n fn    n frame interrupts [tdma execute; sched_gsmtime_execute(fn); tdma advance], fn counting modulo the hyperframe 2715648. *)
From Coq Require Import ZArith List Permutation Sorted.
From OBB Require Import Gen.FwSchedConst Gen.FwGsmtimeConst Model.TdmaSched Model.SchedGsmtime Proofs.TdmaSchedSpec Proofs.TdmaSchedSortP Proofs.TdmaSchedP Proofs.TdmaSchedRefP Proofs.TdmaSchedHistP Proofs.TdmaSchedOriginP Proofs.TdmaSchedSpawnP Proofs.SchedGsmtimeP.
Import ListNotations.
Open Scope Z_scope.

(* the constants and field widths compiled from the real headers are the ones the model and the theorems use *)
Theorem c08_constants :
  c_TDMASCHED_NUM_FRAMES = 25 /\ c_TDMASCHED_NUM_CB = 8 /\ c_NBUCKETS = 25 /\ c_NITEMS = 8 /\
  c_CUR_BITS = 8 /\ c_NUM_ITEMS_BITS = 8 /\ c_P1_BITS = 8 /\ c_P2_BITS = 8 /\ c_P3_BITS = 16 /\ c_P3_SIGNED = 0 /\
  c_PRIO_BITS = 16 /\ c_PRIO_SIGNED = 1.
Proof. repeat split; reflexivity. Qed.
Print Assumptions c08_constants.

(* no history of valid operations, from any well-formed state, with ANY callback results, indexes outside an array or calls NULL;
   the state stays well-formed (in particular no bucket ever holds more than 8 items, cur stays below 25) *)
Theorem c08_no_crash : forall (rcf : item -> Z) (ops : list op) (st : sched),
  wf st -> cbs_ok st -> Forall op_ok ops ->
  exists os st', run rcf st ops = (os, FOk st') /\ wf st' /\ cbs_ok st' /\ length os = length ops.
Proof. exact run_ok. Qed.
Print Assumptions c08_no_crash.

(* refinement, one operation: the ring buffer implements the multiset of (frames-until-due, item):
   schedule adds (N, item) unless 8 items are already due in N frames (-1), advance decrements every due-in modulo 25,
   execute runs exactly the items with due-in 0 (a permutation of them, ascending priority, return value = their number)
   and removes them, reset keeps exactly the items with due-in 0 *)
Theorem c08_refines_step : forall (rcf : item -> Z) (st : sched) (m : list aitem) (o : op) (st' : sched) (b : obs),
  wf st -> cbs_ok st -> (forall x, 0 <= rcf x) -> refines st m -> op_ok o ->
  step rcf st o = Ok (st', b) ->
  refines st' (fst (a_step m o)) /\ obs_matches b (snd (a_step m o)).
Proof. exact step_refines. Qed.
Print Assumptions c08_refines_step.

(* refinement, all histories *)
Theorem c08_refines : forall (rcf : item -> Z), (forall x, 0 <= rcf x) ->
  forall (ops : list op) (st : sched) (m : list aitem),
  wf st -> cbs_ok st -> refines st m -> Forall op_ok ops ->
  exists os st', run rcf st ops = (os, FOk st') /\ wf st' /\ cbs_ok st' /\
                 refines st' (snd (a_run m ops)) /\ Forall2 obs_matches os (fst (a_run m ops)).
Proof. exact run_refines. Qed.
Print Assumptions c08_refines.

(* the empty scheduler at any ring position is a valid start and refines the empty multiset *)
Theorem c08_init_refines : forall c, 0 <= c < 25 -> wf (init c) /\ cbs_ok (init c) /\ refines (init c) [].
Proof. exact (fun c H => conj (proj1 (init_wf c H)) (conj (proj2 (init_wf c H)) (init_refines c))). Qed.
Print Assumptions c08_init_refines.

(* execute: the callbacks run are a permutation of the current frame's bucket, in ascending priority, the return value is their
   number; afterwards that frame is empty, the ring position and every other frame are unchanged *)
Theorem c08_sorted_perm : forall (rcf : item -> Z) (st : sched),
  wf st -> cbs_ok st -> (forall x, 0 <= rcf x) ->
  exists st' lg, tdma_sched_execute rcf st = XOk st' lg (Z.of_nat (length lg)) /\
    Permutation lg (bucket_due st 0) /\ StronglySorted (fun x y => i_prio x <= i_prio y) lg /\
    bucket_due st' 0 = [] /\ s_cur st' = s_cur st /\ (forall d, 0 < d < 25 -> bucket_due st' d = bucket_due st d).
Proof. exact execute_sorted_perm. Qed.
Print Assumptions c08_sorted_perm.

(* the same at the level of storage slots (identity of an item = its slot): the seq[] array the C sort produces visits
   every occupied slot 0..n-1 exactly once, in ascending priority (exec_order is what tdma_sched_execute iterates over) *)
Theorem c08_each_slot_once : forall (b : list item), (length b <= 8)%nat ->
  exec_order b = map (fun k => nth k b dflt) (slot_order b) /\
  Permutation (slot_order b) (seq 0 (length b)) /\
  (forall k, (k < length b)%nat -> count_occ Nat.eq_dec (slot_order b) k = 1%nat) /\
  StronglySorted (fun j k => i_prio (nth j b dflt) <= i_prio (nth k b dflt)) (slot_order b).
Proof.
  exact (fun b H => conj (exec_order_slots b) (conj (slot_order_perm b H) (conj (fun k Hk => slot_once b k H Hk) (slot_order_sorted b H)))).
Qed.
Print Assumptions c08_each_slot_once.

Theorem c08_executed_empty : forall (rcf : item -> Z) (st : sched),
  wf st -> cbs_ok st -> (forall x, 0 <= rcf x) ->
  exists st' lg r, tdma_sched_execute rcf st = XOk st' lg r /\
    bucket_due st' 0 = [] /\ s_cur st' = s_cur st /\ (forall d, 0 < d < 25 -> bucket_due st' d = bucket_due st d).
Proof.
  intros rcf st Hwf Hcb Hr. destruct (execute_sorted_perm rcf st Hwf Hcb Hr) as (st' & lg & E & _ & _ & H).
  exists st', lg, (Z.of_nat (length lg)). exact (conj E H).
Qed.
Print Assumptions c08_executed_empty.

(* exactly once, on time, with its parameters: in any well-formed state s1 (any ring position, any content), an item scheduled
   N < 25 frames ahead into a frame with room is stored in slot k = (number of items already due then); after ANY valid
   operations [mid] that contain exactly N advances, no reset, and no execute after the N-th advance, the item still sits in slot k
   of the now-current bucket with (cb, p1, p2, p3, prio) unchanged; the next execute runs the slots in an order that is a
   permutation of 0..n-1 - slot k exactly once -, in ascending priority, and leaves the frame empty.
   (executes inside [mid] happen after fewer than N advances and, by c08_sorted_perm, touch only the then-current bucket.) *)
Theorem c08_exactly_once_on_time : forall (rcf : item -> Z) (s1 : sched) (N : Z) (it : item) (mid : list op),
  wf s1 -> cbs_ok s1 -> (forall x, 0 <= rcf x) -> 0 <= N < 25 -> i_cb it <> 0 ->
  (length (bucket_due s1 N) < 8)%nat ->
  Forall op_ok mid -> advances mid = N -> ~ In OReset mid ->
  (forall a b, mid = a ++ OExecute :: b -> advances a < N) ->
  exists s2 os s3 s4 order,
    tdma_schedule s1 N it = Ok (s2, 0) /\
    run rcf s2 mid = (os, FOk s3) /\
    nth_error (bucket_due s3 0) (length (bucket_due s1 N)) = Some it /\
    tdma_sched_execute rcf s3 = XOk s4 (map (fun j => nth j (bucket_due s3 0) dflt) order) (Z.of_nat (length (bucket_due s3 0))) /\
    Permutation order (seq 0 (length (bucket_due s3 0))) /\
    count_occ Nat.eq_dec order (length (bucket_due s1 N)) = 1%nat /\
    StronglySorted (fun x y => i_prio x <= i_prio y) (map (fun j => nth j (bucket_due s3 0) dflt) order) /\
    bucket_due s4 0 = [].
Proof. exact exactly_once_on_time. Qed.
Print Assumptions c08_exactly_once_on_time.

(* sets: tdma_schedule_set is tdma_schedule applied, in order, to every item of the set with p3 replaced, the items of the
   k-th frame of the set (k = number of SCHED_END_FRAME markers before them) at offset off + k; if all fit (return value = number
   of END_FRAME markers) the frame due in d holds its old items followed by the set's frame d - off *)
Theorem c08_set_offsets : forall (st : sched) (off : Z) (set : list item) (p3 : Z) (plan : list (Z * item)),
  wf st -> 0 <= off -> off + set_nframes set < 25 -> set_plan 0 set p3 = Some plan ->
  tdma_schedule_set st off set p3 = place st off plan (set_nframes set) /\
  forall st', tdma_schedule_set st off set p3 = Ok (st', set_nframes set) ->
     s_cur st' = s_cur st /\
     forall d, 0 <= d < 25 -> bucket_due st' d = bucket_due st d ++ plan_frame plan (d - off).
Proof. exact set_offsets. Qed.
Print Assumptions c08_set_offsets.

(* capacity: a frame that already holds 8 items answers -1 and the state is IDENTICAL (nothing overwritten);
   with room the item is appended to that frame only *)
Theorem c08_overflow_reported : forall (st : sched) (N : Z) (it : item), wf st -> 0 <= N < 25 ->
  ((length (bucket_due st N) >= 8)%nat -> tdma_schedule st N it = Ok (st, -1)) /\
  ((length (bucket_due st N) < 8)%nat -> exists st', tdma_schedule st N it = Ok (st', 0) /\ s_cur st' = s_cur st /\
      bucket_due st' N = bucket_due st N ++ [it] /\ forall d, 0 <= d < 25 -> d <> N -> bucket_due st' d = bucket_due st d).
Proof. exact overflow_reported. Qed.
Print Assumptions c08_overflow_reported.

(* the same for sets: the result is -1 or the number of frames, and whatever it is every frame keeps its old items as a prefix *)
Theorem c08_set_never_overwrites : forall (st : sched) (off : Z) (set : list item) (p3 : Z) (plan : list (Z * item)),
  wf st -> 0 <= off -> off + set_nframes set < 25 -> set_plan 0 set p3 = Some plan ->
  exists st' rc, tdma_schedule_set st off set p3 = Ok (st', rc) /\ (rc = -1 \/ rc = set_nframes set) /\ s_cur st' = s_cur st /\
    forall d, 0 <= d < 25 -> exists extra, bucket_due st' d = bucket_due st d ++ extra.
Proof.
  intros st off set p3 plan Hwf H0 Hb Hp. destruct (set_ext st off set p3 plan Hwf H0 Hb Hp) as (st' & rc & E & _ & Hx & _ & Hrc).
  exists st', rc. split; [exact E|]. split; [exact Hrc|]. split; [apply Hx|].
  intros d _. apply ext_due, Hx.
Qed.
Print Assumptions c08_set_never_overwrites.

(* nothing else runs: starting from the empty scheduler at any ring position, after any valid history every item found d frames
   ahead (d = 0: what the next execute runs) was stored by an earlier schedule / set operation of that history for N frames
   ahead, and N minus the advances since is d modulo the ring depth (= exactly N advances when every frame is executed) *)
Theorem c08_nothing_else : forall (rcf : item -> Z) (c : Z) (ops : list op),
  0 <= c < 25 -> (forall x, 0 <= rcf x) -> Forall op_ok ops ->
  exists os st, run rcf (init c) ops = (os, FOk st) /\
    forall d it, 0 <= d < 25 -> In it (bucket_due st d) ->
      exists a o b N, ops = a ++ o :: b /\ schedules o N it /\ 0 <= N < 25 /\ (N - advances b) mod 25 = d.
Proof.
  intros rcf c ops Hc Hr HF. destruct (init_wf c Hc) as (Hwf & Hcb).
  destruct (run_refines rcf Hr ops (init c) [] Hwf Hcb (init_refines c) HF) as (os & st & Hrun & _ & _ & (_ & HR) & _).
  exists os, st. split; [exact Hrun|]. intros d it Hd Hin.
  apply (Permutation_in _ (HR d Hd)), in_due in Hin.
  destruct (a_origin ops [] (d, it) HF Hin) as [(e0 & [] & _)|(a & o & b & N & E & Hs & HN & Hf)].
  exists a, o, b, N. rewrite <- Hf. cbn [fst]. rewrite Z.mod_small by exact Hd. auto.
Qed.
Print Assumptions c08_nothing_else.

(* ================= callbacks that schedule while tdma_sched_execute() runs ================= *)

(* conservative extension: on ANY state (well-formed or not) and for ANY callback results, if the current bucket holds no item with
   callback 15 / 16 the re-entrant execute is the execute of the theorems above (same state, same calls, same return value, same crashes) *)
Theorem c08_sp_conservative : forall (rcf : item -> Z) (st : sched),
  Forall (fun it => i_cb it <> 15 /\ i_cb it <> 16) (bucket_abs st (s_cur st)) ->
  tdma_sched_execute_sp rcf st = lift_x (tdma_sched_execute rcf st).
Proof. exact conservative. Qed.
Print Assumptions c08_sp_conservative.

(* the same for whole histories from any state that stores no such item, with operations that schedule none *)
Theorem c08_sp_conservative_history : forall (rcf : item -> Z) (ops : list op) (st : sched),
  all_st (fun it => i_cb it <> 15 /\ i_cb it <> 16) st -> Forall (all_op (fun it => i_cb it <> 15 /\ i_cb it <> 16)) ops ->
  run_sp rcf st ops = (map lift_obs (fst (run rcf st ops)), snd (run rcf st ops)).
Proof. exact run_conservative. Qed.
Print Assumptions c08_sp_conservative_history.

(* no history of valid operations - items with the scheduling callbacks 15 / 16 and ANY p2 (frame offset of the child) included, ANY
   callback results - indexes outside an array, calls NULL or exhausts the fuel of the run loop (SXFuel, SXOOB, SXNull are mapped to
   FOOB / FNull by step_sp); the state stays well-formed: no bucket ever holds more than 8 items *)
Theorem c08_sp_no_crash : forall (rcf : item -> Z) (ops : list op) (st : sched),
  wf st -> cbs_ok st -> Forall op_ok ops ->
  exists os st', run_sp rcf st ops = (os, FOk st') /\ wf st' /\ cbs_ok st' /\ length os = length ops.
Proof. exact run_sp_ok. Qed.
Print Assumptions c08_sp_no_crash.

(* the general shape of one call, any number of scheduling callbacks in the frame: the items present at entry are invoked in the
   sorted order of c08_each_slot_once, each on the state its predecessors left (so each tdma_schedule done by a callback obeys
   c08_overflow_reported on that state); what they appended to the running frame ([extra], items made by child_of) is invoked
   afterwards in append order whatever its priority; the return value counts both; then the frame is cleared *)
Theorem c08_sp_execute_shape : forall (rcf : item -> Z) (st : sched),
  wf st -> cbs_ok st -> (forall x, 0 <= rcf x) ->
  exists extra,
    bucket_due (fst (spawn_phase rcf st (exec_order (bucket_due st 0)))) 0 = bucket_due st 0 ++ extra /\
    Forall (fun it => 2 <= i_cb it <= 9) extra /\
    tdma_sched_execute_sp rcf st =
      SXOk (set_bucket (fst (spawn_phase rcf st (exec_order (bucket_due st 0)))) (s_cur st) [])
           (snd (spawn_phase rcf st (exec_order (bucket_due st 0))) ++ map ECall extra)
           (Z.of_nat (length (bucket_due st 0) + length extra)).
Proof. exact execute_sp_shape. Qed.
Print Assumptions c08_sp_execute_shape.

(* same frame: any well-formed state (any ring position, any content of the other 24 frames), the current frame holds a callback-15
   item sp with p2 = 0 at any slot among up to 6 other items of any priorities: tdma_schedule(0, child) answers 0, the child is invoked
   in this very call, once, after every item that was in the frame at entry, with the parameters it was scheduled with; it is counted in
   the return value; afterwards the frame is empty and no other frame has changed *)
Theorem c08_sp_same_frame_child : forall (rcf : item -> Z) (st : sched) (l1 : list item) (sp : item) (l2 : list item),
  wf st -> cbs_ok st -> (forall x, 0 <= rcf x) ->
  bucket_due st 0 = l1 ++ sp :: l2 -> Forall plain l1 -> Forall plain l2 -> i_cb sp = 15 -> i_p2 sp = 0 ->
  (length (bucket_due st 0) < 8)%nat ->
  exists st' lg, tdma_sched_execute_sp rcf st = SXOk st' lg (Z.of_nat (length (bucket_due st 0)) + 1) /\
    calls lg = exec_order (bucket_due st 0) ++ [child_of sp] /\
    In (ESpawn 0 (child_of sp) 0) lg /\
    bucket_due st' 0 = [] /\ s_cur st' = s_cur st /\ (forall d, 0 < d < 25 -> bucket_due st' d = bucket_due st d).
Proof. exact same_frame_child. Qed.
Print Assumptions c08_sp_same_frame_child.

(* N frames ahead, 0 < N < 25, room in that frame: the child is stored behind what frame N holds, every other frame is unchanged, the
   running frame is emptied, and the child is NOT invoked in this call (the calls are exactly the entry items) *)
Theorem c08_sp_child_ahead : forall (rcf : item -> Z) (st : sched) (l1 : list item) (sp : item) (l2 : list item) (N : Z),
  wf st -> cbs_ok st -> (forall x, 0 <= rcf x) ->
  bucket_due st 0 = l1 ++ sp :: l2 -> Forall plain l1 -> Forall plain l2 -> i_cb sp = 15 -> i_p2 sp = N -> 0 < N < 25 ->
  (length (bucket_due st N) < 8)%nat ->
  exists st' lg, tdma_sched_execute_sp rcf st = SXOk st' lg (Z.of_nat (length (bucket_due st 0))) /\
    calls lg = exec_order (bucket_due st 0) /\
    In (ESpawn N (child_of sp) 0) lg /\
    bucket_due st' 0 = [] /\ s_cur st' = s_cur st /\
    bucket_due st' N = bucket_due st N ++ [child_of sp] /\
    (forall d, 0 < d < 25 -> d <> N -> bucket_due st' d = bucket_due st d).
Proof. exact child_ahead. Qed.
Print Assumptions c08_sp_child_ahead.

(* capacity: the target frame (N = 0: the running frame itself) already holds 8 items: the callback sees -1, the child is neither
   stored nor run, nothing is overwritten - every other frame is exactly what it was, the running frame ran its entry items and is empty *)
Theorem c08_sp_child_refused : forall (rcf : item -> Z) (st : sched) (l1 : list item) (sp : item) (l2 : list item) (N : Z),
  wf st -> cbs_ok st -> (forall x, 0 <= rcf x) ->
  bucket_due st 0 = l1 ++ sp :: l2 -> Forall plain l1 -> Forall plain l2 -> i_cb sp = 15 -> i_p2 sp = N -> 0 <= N < 25 ->
  (length (bucket_due st N) >= 8)%nat ->
  exists st' lg, tdma_sched_execute_sp rcf st = SXOk st' lg (Z.of_nat (length (bucket_due st 0))) /\
    calls lg = exec_order (bucket_due st 0) /\
    In (ESpawn N (child_of sp) (-1)) lg /\
    bucket_due st' 0 = [] /\ s_cur st' = s_cur st /\
    (forall d, 0 < d < 25 -> bucket_due st' d = bucket_due st d).
Proof. exact child_refused. Qed.
Print Assumptions c08_sp_child_refused.

(* the firmware's pattern (prim_fbsb.c: tdma_sched_reset(); tdma_schedule(0, ...) from a running callback): the reset leaves exactly
   the running frame, the child is still invoked in this very call, last; afterwards NO frame holds anything *)
Theorem c08_sp_reset_then_child : forall (rcf : item -> Z) (st : sched) (l1 : list item) (sp : item) (l2 : list item),
  wf st -> cbs_ok st -> (forall x, 0 <= rcf x) ->
  bucket_due st 0 = l1 ++ sp :: l2 -> Forall plain l1 -> Forall plain l2 -> i_cb sp = 16 -> i_p2 sp = 0 ->
  (length (bucket_due st 0) < 8)%nat ->
  exists st' lg, tdma_sched_execute_sp rcf st = SXOk st' lg (Z.of_nat (length (bucket_due st 0)) + 1) /\
    calls lg = exec_order (bucket_due st 0) ++ [child_of sp] /\
    In (EReset (Z.of_nat (length (bucket_due st 0)))) lg /\ In (ESpawn 0 (child_of sp) 0) lg /\
    s_cur st' = s_cur st /\ (forall d, 0 <= d < 25 -> bucket_due st' d = []).
Proof. exact reset_then_same_frame_child. Qed.
Print Assumptions c08_sp_reset_then_child.

(* exactly once, on time, in histories whose callbacks schedule: an item held in slot k of the frame N < 25 ahead - put there by an
   operation or by a callback (c08_sp_child_ahead: the child sits in slot length (bucket_due st N) of frame N) - is still in slot k
   of the current frame after ANY valid operations [mid] with exactly N advances (executes of frames with callback-15 items included),
   no reset (operation or callback 16: a reset erases other frames by design) and no execute after the N-th advance; the next
   execute invokes the sorted entry items - slot k exactly once - followed by the items its callbacks appended, and empties the frame *)
Theorem c08_sp_held_runs_on_time : forall (rcf : item -> Z) (s2 : sched) (N : Z) (k : nat) (it : item) (mid : list op),
  wf s2 -> cbs_ok s2 -> all_st (fun x => i_cb x <> 16) s2 -> (forall x, 0 <= rcf x) -> 0 <= N < 25 ->
  nth_error (bucket_due s2 N) k = Some it ->
  Forall op_ok mid -> Forall (all_op (fun x => i_cb x <> 16)) mid -> advances mid = N -> ~ In OReset mid ->
  (forall a b, mid = a ++ OExecute :: b -> advances a < N) ->
  exists os s3 s4 lg extra,
    run_sp rcf s2 mid = (os, FOk s3) /\
    nth_error (bucket_due s3 0) k = Some it /\
    tdma_sched_execute_sp rcf s3 = SXOk s4 lg (Z.of_nat (length (bucket_due s3 0) + length extra)) /\
    calls lg = exec_order (bucket_due s3 0) ++ extra /\ Forall (fun x => 2 <= i_cb x <= 9) extra /\
    count_occ Nat.eq_dec (slot_order (bucket_due s3 0)) k = 1%nat /\
    bucket_due s4 0 = [].
Proof. exact held_runs_on_time. Qed.
Print Assumptions c08_sp_held_runs_on_time.

(* ================= GSM-time one-shot events (sched_gsmtime.c) on top of the TDMA scheduler ================= *)

Theorem c08_gsm_constants :
  c_GSMTIME_NEVENTS = 16 /\ c_SCHEDULE_AHEAD = 2 /\ c_SCHEDULE_LATENCY = 1 /\ c_EBUSY = 16 /\ c_GSM_MAX_FN = 2715648 /\
  c_GSMTIME_FN_BITS = 32 /\ c_GSMTIME_FN_SIGNED = 0 /\ c_GSMTIME_P3_BITS = 16.
Proof. repeat split; reflexivity. Qed.
Print Assumptions c08_gsm_constants.

(* invariants, every history (requests in any frame order, any execute arguments, resets, TDMA operations): the active list is sorted by
   fn and every one of the 16 slots is on exactly one of the two lists exactly once; they hold after sched_gsmtime_init *)
Theorem c08_gsm_invariants :
  (StronglySorted (fun a b => e_fn a <= e_fn b) (g_act gs_init) /\ Permutation (map e_slot (g_act gs_init) ++ g_inact gs_init) (seq 0 16)) /\
  forall (ops : list gop) (gs : gstate),
    StronglySorted (fun a b => e_fn a <= e_fn b) (g_act gs) /\ Permutation (map e_slot (g_act gs) ++ g_inact gs) (seq 0 16) ->
    StronglySorted (fun a b => e_fn a <= e_fn b) (g_act (fst (gs_run gs ops))) /\
    Permutation (map e_slot (g_act (fst (gs_run gs ops))) ++ g_inact (fst (gs_run gs ops))) (seq 0 16).
Proof. exact (conj gs_init_ok gs_run_ok). Qed.
Print Assumptions c08_gsm_invariants.

(* the two schedulers decompose: in a combined history that ends without crash the event scheduler evolves on its own (gs_run), the
   events each sched_gsmtime_execute handed over are those of gs_run, and the TDMA scheduler went through run_sp of the expanded
   history - so every theorem above about run_sp / tdma_schedule_set speaks about the TDMA side of combined histories *)
Theorem c08_gsm_projection : forall (rcf : item -> Z) (ops : list gop) (ts : sched) (gs : gstate) (obs : list gobs) (ts' : sched) (gs' : gstate),
  g_run rcf ts gs ops = (obs, GFOk ts' gs') ->
  gs' = fst (gs_run gs ops) /\ qlog obs = map snd (snd (gs_run gs ops)) /\
  exists os, run_sp rcf ts (expand gs ops) = (os, FOk ts').
Proof. exact projection. Qed.
Print Assumptions c08_gsm_projection.

(* the loop of sched_gsmtime_execute as written (gexec_walk, with the TDMA scheduler threaded through) is the pure walk plus the
   tdma_schedule_set calls; freed slots go to the head of the inactive list one after the other *)
Theorem c08_gsm_walk : forall (off tgt : Z) (l : list gev) (ts : sched) (inact : list nat),
  gexec_walk tgt off l ts inact =
    match hand_over off ts (snd (gwalk tgt l)) with
    | Ok (ts', fired) => Ok (fst (gwalk tgt l), ts', rev (map e_slot (snd (gwalk tgt l))) ++ inact, fired)
    | OOB => OOB
    | NullCall => NullCall
    end.
Proof. exact walk_split. Qed.
Print Assumptions c08_gsm_walk.

(* on a SORTED list the early `break` loses nothing: exactly the events with fn = target are handed over, in list order, all others
   stay in order.  (On an unsorted list this is false - the seeded llist_add variant - which is why sortedness is an invariant above.) *)
Theorem c08_gsm_execute_sorted : forall (tgt : Z) (l : list gev), StronglySorted (fun a b => e_fn a <= e_fn b) l ->
  gwalk tgt l = (filter (fun e => negb (e_fn e =? tgt)) l, filter (fun e => e_fn e =? tgt) l).
Proof. exact gwalk_sorted. Qed.
Print Assumptions c08_gsm_execute_sorted.

(* never otherwise, any list: whatever sched_gsmtime_execute(fn) hands over has fn_event = target (for a clock frame fn < 2715648 the
   target is (fn + 2) mod 2715648: c08_gsm_target), and it only moves events: kept ++ handed over is a permutation of what was pending *)
Theorem c08_gsm_only_due : forall (tgt : Z) (l : list gev),
  Forall (fun e => e_fn e = tgt) (snd (gwalk tgt l)) /\ Permutation (fst (gwalk tgt l) ++ snd (gwalk tgt l)) l.
Proof. exact (fun tgt l => conj (gwalk_fired_due tgt l) (gwalk_perm tgt l)). Qed.
Print Assumptions c08_gsm_only_due.

(* sorted insert: the new event goes in front of the first pending event with a HIGHER fn, else to the end: equal fns keep request order *)
Theorem c08_gsm_sorted_insert : forall (e : gev) (l : list gev), exists l1 l2, l = l1 ++ l2 /\ ins_sorted e l = l1 ++ e :: l2 /\
  Forall (fun c => e_fn c <= e_fn e) l1 /\ match l2 with [] => True | c :: _ => e_fn e < e_fn c end.
Proof. exact ins_sorted_split. Qed.
Print Assumptions c08_gsm_sorted_insert.

(* capacity: with 16 events pending sched_gsmtime answers -EBUSY = -16 and the state is IDENTICAL; with fewer it answers 0, takes the
   FIRST free slot of the inactive list and inserts the event as c08_gsm_sorted_insert says *)
Theorem c08_gsm_ebusy : forall (gs : gstate) (si : list item) (fn p3 : Z),
  Permutation (map e_slot (g_act gs) ++ g_inact gs) (seq 0 16) ->
  (length (g_act gs) = 16%nat -> sched_gsmtime gs si fn p3 = (gs, -16)) /\
  ((length (g_act gs) < 16)%nat -> exists s rest, g_inact gs = s :: rest /\
     sched_gsmtime gs si fn p3 = ({| g_act := ins_sorted {| e_slot := s; e_si := si; e_fn := fn; e_p3 := p3 |} (g_act gs); g_inact := rest |}, 0)).
Proof.
  intros gs si fn p3 H. pose proof (ebusy_iff gs H) as Hb. split; intros L.
  - apply gsmtime_ebusy. apply Hb. exact L.
  - destruct (g_inact gs) as [|s rest] eqn:E; [rewrite (proj1 Hb eq_refl) in L; destruct (Nat.lt_irrefl _ L)|].
    exists s, rest. split; [reflexivity|]. apply gsmtime_accept. exact E.
Qed.
Print Assumptions c08_gsm_ebusy.

(* reset: no event is pending afterwards, all 16 slots are free, the invariants hold *)
Theorem c08_gsm_reset : forall (gs : gstate), gs_ok gs ->
  g_act (sched_gsmtime_reset gs) = [] /\ gs_ok (sched_gsmtime_reset gs) /\ Permutation (g_inact (sched_gsmtime_reset gs)) (seq 0 16).
Proof.
  intros gs H. pose proof (gs_step_ok gs GReset H) as H1. cbn [gs_step fst] in H1. split; [reflexivity|]. split; [exact H1|].
  destruct H1 as (_ & P). unfold gs_pool in P. cbn [sched_gsmtime_reset g_act map app] in P. exact P.
Qed.
Print Assumptions c08_gsm_reset.

(* the look-ahead target on the hyperframe clock: two frames ahead modulo 2715648, always a frame number of the hyperframe - so an event
   requested with a frame number >= 2715648 is never handed over (the callers reduce theirs) *)
Theorem c08_gsm_target :
  (forall fn, 0 <= fn < 2715648 -> gexec_target fn = (fn + 2) mod 2715648) /\
  (forall fn, 0 <= gexec_target fn < 2715648) /\
  (forall fn l e, In e (snd (gwalk (gexec_target fn) l)) -> 0 <= e_fn e < 2715648).
Proof.
  split; [exact target_clock|]. split; [exact target_range|]. intros fn l e Hin.
  pose proof (gwalk_fired_due (gexec_target fn) l) as HF. rewrite Forall_forall in HF. rewrite (HF e Hin). apply target_range.
Qed.
Print Assumptions c08_gsm_target.

(* exactly once, in frame (F - 2) mod 2715648, across the hyperframe wrap.  Any state with a free slot (s = the first); the clock shows
   frame t (the next sched_gsmtime_execute gets t), an event is requested for ANY frame F of the hyperframe, 0 and 1 included; then ANY
   operations [mid] (further requests below, above, equal to F, before or behind the wrap; TDMA operations) without sched_gsmtime_reset whose
   executes are the running clock: exactly j = (F - 2 - t) mod 2715648 of them, with the frame numbers t, t+1, ... modulo 2715648.
   Admissible window: NONE is excluded - for a request d = (F - t) mod 2715648 frames ahead with 2 <= d <= 2715647 this is j = d - 2
   executes, the hand-over happens in frame F - 2 and the items run from frame F - 1 on; a STALE request (d = 0 or 1: frame F is the
   current one or the next, its hand-over frame has passed) has j = 2715646 + d: it stays pending, holds its slot, and is handed over when
   the clock comes round, one hyperframe late - that is what the code does.
   Then: the request is accepted; none of the j executes hands slot s over; the event is still pending; the next execute, of frame
   (F - 2) mod 2715648 = (t + j) mod 2715648, hands it over - slot s exactly once among the events handed over, all of which are events for
   frame F -; afterwards it is no longer pending and slot s is free again (no later execute can hand it over).
   The early `break` cannot lose it: the list is sorted by the absolute fn (c08_gsm_invariants), every entry in front of a due event has
   fn <= target, whatever side of the wrap the other pending events are on (c08_gsm_execute_sorted holds for every target). *)
Theorem c08_gsm_exactly_once_on_time : forall (gs : gstate) (s : nat) (rest : list nat) (si : list item) (t F p3 : Z) (mid : list gop) (j : nat),
  gs_ok gs -> g_inact gs = s :: rest ->
  0 <= t < 2715648 -> 0 <= F < 2715648 -> Z.of_nat j = (F - 2 - t) mod 2715648 ->
  exec_fns mid = clock t j -> ~ In GReset mid ->
  let e := {| e_slot := s; e_si := si; e_fn := F; e_p3 := p3 |} in
  let gs2 := fst (gs_run gs (GReq si F p3 :: mid)) in
  let fx := (F - 2) mod 2715648 in
  let W := snd (gwalk (gexec_target fx) (g_act gs2)) in
  fx = (t + Z.of_nat j) mod 2715648 /\
  sched_gsmtime gs si F p3 = (fst (gs_step gs (GReq si F p3)), 0) /\
  (forall fn fired, In (fn, fired) (snd (gs_run gs (GReq si F p3 :: mid))) -> ~ In s (map e_slot fired)) /\
  gs_ok gs2 /\ In e (g_act gs2) /\
  In e W /\ count_occ Nat.eq_dec (map e_slot W) s = 1%nat /\ Forall (fun x => e_fn x = F) W /\
  ~ In e (g_act (fst (gs_step gs2 (GExec fx)))) /\ In s (g_inact (fst (gs_step gs2 (GExec fx)))).
Proof.
  intros gs s rest si t F p3 mid j Hok Hin Ht HF Hj Hfns Hnr e gs2 fx W.
  destruct (clock_no_target t F j Ht HF Hj) as (Hno & Htx & Hfx). rewrite <- Hfns in Hno.
  split; [symmetry; exact Hfx|]. exact (fires_when_due gs s rest si F p3 mid fx Hok Hin Hno Hnr Htx).
Qed.
Print Assumptions c08_gsm_exactly_once_on_time.

(* the same for executes with ANY frame numbers (not only the running clock): as long as none of them targets F the event stays pending
   and is not handed over; the first execute whose target is F hands it over exactly once *)
Theorem c08_gsm_fires_when_due : forall (gs : gstate) (s : nat) (rest : list nat) (si : list item) (F p3 : Z) (mid : list gop) (fnx : Z),
  gs_ok gs -> g_inact gs = s :: rest ->
  Forall (fun fn => gexec_target fn <> F) (exec_fns mid) -> ~ In GReset mid -> gexec_target fnx = F ->
  let e := {| e_slot := s; e_si := si; e_fn := F; e_p3 := p3 |} in
  let gs2 := fst (gs_run gs (GReq si F p3 :: mid)) in
  let W := snd (gwalk (gexec_target fnx) (g_act gs2)) in
  sched_gsmtime gs si F p3 = (fst (gs_step gs (GReq si F p3)), 0) /\
  (forall fn fired, In (fn, fired) (snd (gs_run gs (GReq si F p3 :: mid))) -> ~ In s (map e_slot fired)) /\
  gs_ok gs2 /\ In e (g_act gs2) /\
  In e W /\ count_occ Nat.eq_dec (map e_slot W) s = 1%nat /\ Forall (fun x => e_fn x = F) W /\
  ~ In e (g_act (fst (gs_step gs2 (GExec fnx)))) /\ In s (g_inact (fst (gs_step gs2 (GExec fnx)))).
Proof. exact fires_when_due. Qed.
Print Assumptions c08_gsm_fires_when_due.

(* what the hand-over is for the TDMA scheduler: e the only pending event for its frame, sched_gsmtime_execute(fn) with fn + 2 = e's frame
   is exactly tdma_schedule_set(1, si, p3) (c08_set_offsets, c08_set_never_overwrites apply); its result is dropped by the code *)
Theorem c08_gsm_handover : forall (ts : sched) (gs : gstate) (e : gev) (fn : Z),
  gs_ok gs -> In e (g_act gs) -> gexec_target fn = e_fn e -> (forall x, In x (g_act gs) -> e_fn x = e_fn e -> x = e) ->
  sched_gsmtime_execute ts gs fn =
    match tdma_schedule_set ts 1 (e_si e) (e_p3 e) with
    | Ok (ts', rc) => Ok (ts', fst (gs_step gs (GExec fn)), 1, [(e, rc)])
    | OOB => OOB
    | NullCall => NullCall
    end.
Proof. exact handover_single. Qed.
Print Assumptions c08_gsm_handover.

(* composition: the items of the event run in frame F - 1 + k.  e pending for frame F, the only one; its set is END_SET-terminated with
   fewer than 24 frames, holds no callback 16, and fits (tdma_schedule_set answers the number of frames).  Then the item at position idx of
   frame k of the set sits in slot (items already due then) + idx of the TDMA frame 1 + k ahead, and after ANY further combined history
   [tail] whose TDMA view has exactly 1 + k advances (the advance of frame F - 2 and k more frame interrupts), no reset and no execute after
   the last advance, the next tdma_sched_execute runs that slot exactly once (sorted entry items, then appended ones) and empties the frame *)
Theorem c08_gsm_event_items_on_time : forall (rcf : item -> Z) (ts : sched) (gs : gstate) (e : gev) (fn : Z) (plan : list (Z * item))
    (ts' : sched) (k : Z) (idx : nat) (it : item) (tail : list gop),
  wf ts -> cbs_ok ts -> all_st (fun x => i_cb x <> 16) ts -> (forall x, 0 <= rcf x) ->
  gs_ok gs -> In e (g_act gs) -> gexec_target fn = e_fn e -> (forall x, In x (g_act gs) -> e_fn x = e_fn e -> x = e) ->
  set_plan 0 (e_si e) (e_p3 e) = Some plan -> 1 + set_nframes (e_si e) < 25 -> Forall (fun x => i_cb x <> 16) (e_si e) ->
  tdma_schedule_set ts 1 (e_si e) (e_p3 e) = Ok (ts', set_nframes (e_si e)) ->
  0 <= k -> 1 + k < 25 -> nth_error (plan_frame plan k) idx = Some it ->
  let gs' := fst (gs_step gs (GExec fn)) in
  let mid := expand gs' tail in
  Forall op_ok mid -> Forall (all_op (fun x => i_cb x <> 16)) mid -> advances mid = 1 + k -> ~ In OReset mid ->
  (forall a b, mid = a ++ OExecute :: b -> advances a < 1 + k) ->
  sched_gsmtime_execute ts gs fn = Ok (ts', gs', 1, [(e, set_nframes (e_si e))]) /\
  exists os s3 s4 lg extra,
    run_sp rcf ts' mid = (os, FOk s3) /\
    nth_error (bucket_due s3 0) (length (bucket_due ts (1 + k)) + idx)%nat = Some it /\
    tdma_sched_execute_sp rcf s3 = SXOk s4 lg (Z.of_nat (length (bucket_due s3 0) + length extra)) /\
    calls lg = exec_order (bucket_due s3 0) ++ extra /\ Forall (fun x => 2 <= i_cb x <= 9) extra /\
    count_occ Nat.eq_dec (slot_order (bucket_due s3 0)) (length (bucket_due ts (1 + k)) + idx)%nat = 1%nat /\
    bucket_due s4 0 = [].
Proof. exact event_items_on_time. Qed.
Print Assumptions c08_gsm_event_items_on_time.
