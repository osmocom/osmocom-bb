(* C04 - TRXD octets follow the protocol layout; Python and trxcon (C) agree. Statements; the proofs apply lemmas of Proofs/. *)
From Coq Require Import ZArith List Bool.
From OBB Require Import Gen.TrxdConst Gen.TrxIfConst Model.Trxd Model.TrxIf Proofs.TrxdBase Proofs.TrxdTx Proofs.TrxdRx Proofs.TrxdRxRT Proofs.TrxIfP Proofs.TrxIfLayoutP.
Import ListNotations.
Open Scope Z_scope.

(* the constants compiled into trx_if.c are the protocol's, and equal the toolkit's *)
Theorem c04_constants :
  trxd_buf_size = 512 /\ trxdv0_hdr_len = 8 /\ c_tdma_hyperframe = 2715648 /\ nb_gmsk_burst = 148 /\ nb_8psk_burst = 444
  /\ c_tdma_hyperframe = gsm_hyperframe /\ nb_gmsk_burst = gmsk_burst_len /\ nb_8psk_burst = edge_burst_len.
Proof. exact (conj (proj1 (proj2 gen_trxif_consts)) (conj (proj1 (proj2 (proj2 gen_trxif_consts))) (conj (proj1 (proj2 (proj2 (proj2 gen_trxif_consts))))
        (conj (proj1 (proj2 (proj2 (proj2 (proj2 gen_trxif_consts))))) (conj (proj1 (proj2 (proj2 (proj2 (proj2 (proj2 gen_trxif_consts)))))) consts_agree))))). Qed.
Print Assumptions c04_constants.

(* ---- the encoder writes exactly the documented layout ---- *)
(* L1 -> TRX: version nibble and timeslot, big-endian frame number, attenuation, hard bits; version 0 + legacy: two padding octets *)
Theorem c04_gen_tx_is_layout : forall m l b, gen_tx l m = Ok b ->
  exists fn tn pwr bu, t_fn m = Some fn /\ t_tn m = Some tn /\ t_pwr m = Some pwr /\ t_burst m = Some bu /\
    b = ([t_ver m * 16 + tn; fn / 16777216 mod 256; fn / 65536 mod 256; fn / 256 mod 256; fn mod 256; pwr] ++ bu)
        ++ (if l && (t_ver m =? 0) then [0; 0] else []).
Proof. exact gen_tx_layout. Qed.
Print Assumptions c04_gen_tx_is_layout.

(* TRX -> L1: ..., negated RSSI, big-endian ToA256, for version 1 the MTS octet and big-endian C/I, soft bits as 127 - s (0..254) *)
Theorem c04_gen_rx_is_layout : forall m l b, gen_rx l m = Ok b ->
  (match r_burst m with Some bs => Forall (fun s => -128 <= s <= 127) bs | None => True end) ->
  exists fn tn rssi toa, r_fn m = Some fn /\ r_tn m = Some tn /\ r_rssi m = Some rssi /\ r_toa m = Some toa /\
    b = [r_ver m * 16 + tn; fn / 16777216 mod 256; fn / 65536 mod 256; fn / 256 mod 256; fn mod 256; - rssi;
         toa mod 65536 / 256; toa mod 65536 mod 256]
        ++ (if r_ver m =? 1 then [gen_mts m] ++ [oz (r_ci m) mod 65536 / 256; oz (r_ci m) mod 65536 mod 256] else [])
        ++ (match r_burst m with Some bs => map (fun s => 127 - s) bs | None => [] end)
        ++ (if l && (r_ver m =? 0) then [0; 0] else []).
Proof. exact gen_rx_layout. Qed.
Print Assumptions c04_gen_rx_is_layout.

(* the MTS octet: 128 for a NOPE indication, else TSC + 8 * (modulation code + TSC set), codes 0 4 6 8 10 12 for
   GMSK, 8-PSK, GMSK-AB, 16QAM, 32QAM, AQPSK *)
Theorem c04_mts_octet : forall m, spec_rx m -> r_ver m = 1 ->
  gen_mts m = if r_nope m then 128
              else match r_tsc m, r_mod m, r_tset m with
                   | Some t, Some i, Some s => t + 8 * (nth i [0; 4; 6; 8; 10; 12] 0 + s)
                   | _, _, _ => 0 end.
Proof. exact gen_mts_val. Qed.
Print Assumptions c04_mts_octet.

(* ---- whatever the parser accepts, it reads per that same layout (r = bit 3 of the first octet, which the parser ignores) ---- *)
Theorem c04_parse_tx_is_layout : forall b m, Forall (fun x => 0 <= x < 256) b -> parse_tx b = Ok m ->
  exists fn tn pwr r rest,
    (t_ver m = 0 \/ t_ver m = 1) /\ t_fn m = Some fn /\ t_tn m = Some tn /\ t_pwr m = Some pwr
    /\ 0 <= fn < 4294967296 /\ 0 <= tn <= 7 /\ 0 <= pwr <= 255 /\ (r = 0 \/ r = 1)
    /\ b = [t_ver m * 16 + (tn + 8 * r); fn / 16777216 mod 256; fn / 65536 mod 256; fn / 256 mod 256; fn mod 256; pwr] ++ rest
    /\ t_burst m = match rest with [] => None | _ :: _ => Some (tx_parse_burst rest) end.
Proof. exact parse_tx_is_layout. Qed.
Print Assumptions c04_parse_tx_is_layout.

Theorem c04_parse_rx_is_layout : forall b m, Forall (fun x => 0 <= x < 256) b -> parse_rx b = Ok m ->
  exists fn tn rssi toa r rest,
    (r_ver m = 0 \/ r_ver m = 1) /\ r_fn m = Some fn /\ r_tn m = Some tn /\ r_rssi m = Some rssi /\ r_toa m = Some toa
    /\ 0 <= fn < 4294967296 /\ 0 <= tn <= 7 /\ -255 <= rssi <= 0 /\ -32768 <= toa <= 32767 /\ (r = 0 \/ r = 1)
    /\ ((r_ver m = 0
         /\ b = [0 * 16 + (tn + 8 * r); fn / 16777216 mod 256; fn / 65536 mod 256; fn / 256 mod 256; fn mod 256; - rssi;
                 toa mod 65536 / 256; toa mod 65536 mod 256] ++ rest
         /\ match rest with
            | [] => r_burst m = None
            | _ :: _ => exists i, r_mod m = Some i /\ (Z.of_nat (length rest) = mod_bl i \/ Z.of_nat (length rest) = mod_bl i + 2)
                                  /\ r_burst m = Some (map (fun u => if u =? 255 then -127 else 127 - u) (firstn (Z.to_nat (mod_bl i)) rest))
            end)
        \/ (r_ver m = 1 /\ exists mts ci, r_ci m = Some ci /\ -32768 <= ci <= 32767 /\ 0 <= mts <= 255
            /\ mts_spec mts = (r_nope m, r_mod m, r_tset m, r_tsc m)
            /\ b = [1 * 16 + (tn + 8 * r); fn / 16777216 mod 256; fn / 65536 mod 256; fn / 256 mod 256; fn mod 256; - rssi;
                    toa mod 65536 / 256; toa mod 65536 mod 256] ++ [mts] ++ [ci mod 65536 / 256; ci mod 65536 mod 256] ++ rest
            /\ r_burst m = match rest with [] => None | _ :: _ => Some (map (fun u => if u =? 255 then -127 else 127 - u) rest) end)).
Proof. exact parse_rx_is_layout. Qed.
Print Assumptions c04_parse_rx_is_layout.

(* ---- Python -> C: every version-0 burst the toolkit encodes (legacy padding on or off, soft bits in [-127,127]) is handed by
   trx_data_rx_cb to trxcon's scheduler with the same frame, timeslot, RSSI, ToA256 and soft bits ---- *)
Theorem c04_py_to_c : forall m l b, gen_rx l m = Ok b -> r_ver m = 0 -> soft_ok m ->
  exists fn tn rssi toa bs, r_fn m = Some fn /\ r_tn m = Some tn /\ r_rssi m = Some rssi /\ r_toa m = Some toa /\ r_burst m = Some bs
    /\ c_data_rx b = RxInd tn fn rssi toa bs.
Proof.
  intros m l b Hgen Hver Hsoft.
  destruct (py_to_c_gen m l b Hgen Hver (soft_ok_bytes m Hsoft)) as (fn & tn & rssi & toa & bs & E1 & E2 & E3 & E4 & E5 & E6).
  exists fn, tn, rssi, toa, bs. repeat (split; [assumption|]).
  unfold soft_ok in Hsoft. rewrite E5 in Hsoft. rewrite clip_id in E6 by exact Hsoft. exact E6.
Qed.
Print Assumptions c04_py_to_c.

(* the corner outside the property's soft-bit domain: -128 validates, is sent as 255 and arrives as -127 *)
Theorem c04_py_to_c_m128 : forall m l b, gen_rx l m = Ok b -> r_ver m = 0 ->
  (match r_burst m with Some bs => Forall (fun s => -128 <= s <= 127) bs | None => True end) ->
  exists fn tn rssi toa bs, r_fn m = Some fn /\ r_tn m = Some tn /\ r_rssi m = Some rssi /\ r_toa m = Some toa /\ r_burst m = Some bs
    /\ c_data_rx b = RxInd tn fn rssi toa (map (fun s => if s =? -128 then -127 else s) bs).
Proof. exact py_to_c_gen. Qed.
Print Assumptions c04_py_to_c_m128.

(* trxcon speaks TRXD version 0 only: a version-1 message of the toolkit is refused (-ENOTSUP), nothing is delivered *)
Theorem c04_c_refuses_v1 : forall m l b, gen_rx l m = Ok b -> r_ver m = 1 -> c_data_rx b = RxBadVer.
Proof. exact c_rx_v1_refused. Qed.
Print Assumptions c04_c_refuses_v1.

(* ---- C -> Python: every burst trxcon emits (timeslot 0..7, any 32-bit frame number, attenuation 0..255, 148 or 444 hard-bit octets)
   is parsed by the toolkit as a version-0 message with exactly these values ---- *)
Theorem c04_c_to_py : forall tn fn pwr burst,
  0 <= tn <= 7 -> 0 <= fn < 4294967296 -> 0 <= pwr <= 255 -> Forall (fun b => 0 <= b < 256) burst ->
  (length burst = 148%nat \/ length burst = 444%nat) ->
  exists o, c_burst_req tn fn pwr burst = TxSent o /\
    parse_tx o = Ok {| t_ver := 0; t_fn := Some fn; t_tn := Some tn; t_pwr := Some pwr; t_burst := Some burst |}.
Proof.
  intros tn fn pwr burst Ht Hf Hp Hb Hl.
  destruct (c_to_py_gen tn fn pwr burst Ht Hf Hp Hb) as (o & E1 & _ & E2); [destruct Hl as [-> | ->]; apply Nat.leb_le; reflexivity|].
  exists o. split; [exact E1|]. rewrite E2, tx_parse_burst_cases.
  destruct burst as [|x xs]; [destruct Hl; discriminate|]. cbv zeta. destruct Hl as [-> | ->]; reflexivity.
Qed.
Print Assumptions c04_c_to_py.

(* other burst lengths up to the 506 octets that fit trxcon's buffer: the octets are still the layout; the toolkit's parser cuts the burst
   (tx_parse_burst: > 444 -> 444, 149..443 -> 148, shorter kept) and reports no burst for length 0 *)
Theorem c04_c_to_py_any_length : forall tn fn pwr burst,
  0 <= tn <= 7 -> 0 <= fn < 4294967296 -> 0 <= pwr <= 255 -> Forall (fun b => 0 <= b < 256) burst -> (length burst <= 506)%nat ->
  exists o, c_burst_req tn fn pwr burst = TxSent o
    /\ o = [0 * 16 + tn; fn / 16777216 mod 256; fn / 65536 mod 256; fn / 256 mod 256; fn mod 256; pwr] ++ burst
    /\ parse_tx o = Ok {| t_ver := 0; t_fn := Some fn; t_tn := Some tn; t_pwr := Some pwr;
                          t_burst := match burst with [] => None | _ :: _ => Some (tx_parse_burst burst) end |}.
Proof. exact c_to_py_gen. Qed.
Print Assumptions c04_c_to_py_any_length.

(* beyond 506 octets the unchecked memcpy leaves uint8_t buf[512] (the scheduler never asks for that) *)
Theorem c04_c_tx_overflow_iff : forall tn fn pwr burst, (506 < length burst)%nat <-> c_burst_req tn fn pwr burst = TxOOB.
Proof. exact c_burst_req_oob. Qed.
Print Assumptions c04_c_tx_overflow_iff.

(* whatever trxcon sends has 6 + burst_len <= 512 octets: it fits the recvfrom(512) of the toolkit's data interface untruncated *)
Theorem c04_c_tx_fits_recv : forall tn fn pwr burst o, c_burst_req tn fn pwr burst = TxSent o ->
  (length o <= 512)%nat /\ length o = (6 + length burst)%nat.
Proof. exact c_burst_req_fits. Qed.
Print Assumptions c04_c_tx_fits_recv.

(* ---- for ALL octet strings trx_data_rx_cb reads only octets it received ---- *)
Theorem c04_c_rx_in_bounds : forall d, c_data_rx d <> RxOOB.
Proof. exact c_data_rx_safe. Qed.
Print Assumptions c04_c_rx_in_bounds.

(* and what it hands on is always a well-formed indication *)
Theorem c04_c_rx_ind_shape : forall d tn fn rssi toa bits, Forall (fun b => 0 <= b < 256) d -> c_data_rx d = RxInd tn fn rssi toa bits ->
  0 <= tn <= 7 /\ 0 <= fn < 2715648 /\ -128 <= rssi <= 127 /\ -32768 <= toa <= 32767
  /\ (length bits = 148%nat \/ length bits = 444%nat) /\ Forall (fun s => -127 <= s <= 127) bits.
Proof. exact c_data_rx_ind_shape. Qed.
Print Assumptions c04_c_rx_ind_shape.

(* the socket layer in between (data_if.py): the receive size of DATAInterface.recv_raw_data - probed through a socket on every run -
   holds the longest valid L1 -> TRX datagram (6 header octets + 444 bits + 2 legacy padding octets = 452), so what reaches the parser is
   the datagram as it was sent *)
From OBB Require Import Gen.FakeTrxConst Proofs.TrxdRecvSize.
Theorem c04_datagram_fits_receive_size : forall m l b, gen_tx l m = Ok b ->
  Z.of_nat (length b) <= 452 /\ 452 <= data_recv_size /\ firstn (Z.to_nat data_recv_size) b = b.
Proof. exact (fun m l b H => conj (proj1 (gen_tx_fits m l b H)) (conj (proj2 (gen_tx_fits m l b H)) (firstn_recv_id m l b H))). Qed.
Print Assumptions c04_datagram_fits_receive_size.
