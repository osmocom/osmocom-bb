(* C02 - virtual Um routing: bursts reach exactly the tuned, running peers. Statements; the proofs apply lemmas of Proofs/. *)
From Coq Require Import ZArith List Bool.
From OBB Require Import Base.Lists Model.Trxd Model.Trx Proofs.TrxMeta Proofs.TrxFwd Proofs.TrxInv Proofs.TrxTick.
Import ListNotations.
Open Scope Z_scope.

(* forward_msg for a burst m of transceiver src_i in ANY set of transceivers (any number, any state): handle_data_msg is called
   for exactly those k with k <> src_i, running, and Rx frequency in frame FN (fixed, or resolved through its own hopping
   sequence) equal to the sender's Tx frequency in frame FN - one call each, in list order; nobody else is touched *)
Theorem c02_routing : forall trxs src_i m draws trxs' ds draws' src txf,
  nth_error trxs src_i = Some src -> tx_freq src (oz (t_fn m)) = FOk txf ->
  forward trxs src_i m draws = (trxs', ds, draws', false) ->
  map fst ds = rcpts src_i txf (oz (t_fn m)) trxs 0
  /\ NoDup (map fst ds)
  /\ (forall k, In k (map fst ds) <-> exists t, nth_error trxs k = Some t /\ k <> src_i /\ x_run t = true
                                      /\ exists rf, rx_freq t (oz (t_fn m)) = FOk rf /\ opt_eqb rf txf = true)
  /\ length trxs' = length trxs.
Proof. exact forward_routing. Qed.
Print Assumptions c02_routing.

(* nothing is delivered back to the sender *)
Theorem c02_not_to_sender : forall trxs src_i m draws trxs' ds draws' src txf,
  nth_error trxs src_i = Some src -> tx_freq src (oz (t_fn m)) = FOk txf -> forward trxs src_i m draws = (trxs', ds, draws', false) ->
  ~ In src_i (map fst ds).
Proof.
  intros trxs src_i m draws trxs' ds draws' src txf Hs Ht H I.
  apply (forward_routing _ _ _ _ _ _ _ _ _ Hs Ht H) in I as [t [_ [Hne _]]]. exact (Hne eq_refl).
Qed.
Print Assumptions c02_not_to_sender.

(* in every state any history of control / data datagrams can reach (wf_trx: see c14) forwarding never fails (the 'false' above),
   and it changes nobody's queue, tuning, power state, version or wiring *)
Theorem c02_forward_total : forall trxs i m draws, Forall wf_trx trxs -> 0 <= oz (t_fn m) ->
  let '(trxs', _, _, crashed) := forward trxs i m draws in crashed = false /\ Forall wf_trx trxs'.
Proof. intros trxs i m draws Hw _. exact (forward_ok trxs i m draws Hw). Qed.
Print Assumptions c02_forward_total.

Theorem c02_forward_frame : forall trxs i m draws, Forall wf_trx trxs -> 0 <= oz (t_fn m) ->
  let '(trxs', _, _, _) := forward trxs i m draws in
  length trxs' = length trxs /\
  forall k t, nth_error trxs' k = Some t -> exists t0, nth_error trxs k = Some t0
    /\ x_run t = x_run t0 /\ x_rx t = x_rx t0 /\ x_tx t = x_tx t0 /\ x_fh t = x_fh t0 /\ x_ver t = x_ver t0 /\ x_q t = x_q t0 /\ x_cfg t = x_cfg t0.
Proof.
  intros trxs i m draws _ _. pose proof (forward_upto trxs i m draws) as H. destruct (forward trxs i m draws) as [[[trxs' ds] dr] c].
  split; [exact (Forall2_length _ _ _ H)|exact (Forall2_nth_error _ _ _ H)].
Qed.
Print Assumptions c02_forward_frame.

(* hopping parameters SETFH accepts (HSN 0..63, non-empty mobile allocation) always resolve to a frequency *)
Theorem c02_hopping_resolves : forall h fn, 0 <= fh_hsn h <= 63 -> fh_ma h <> [] -> 0 <= fn -> fh_resolve h fn <> None.
Proof. exact (fun h fn Hh Hm _ => fh_resolve_some h fn Hh Hm). Qed.
Print Assumptions c02_hopping_resolves.

(* the clock tick dispatches to every transceiver: it never fails on a reachable world and keeps it reachable *)
Theorem c02_tick_dispatch : forall w fn draws, wf_world w -> 0 <= fn ->
  let '(w', _, out) := tick w fn draws in o_crash out = false /\ wf_world w' /\ length (w_trx w') = length (w_trx w).
Proof. exact tick_ok. Qed.
Print Assumptions c02_tick_dispatch.
