(* Model of the two multiframe mappings (C11). Definitions only.
   mirrors: firmware layer1/mframe_sched.c  mframe_schedule_set(), mframe_schedule()  (tables come from Gen/MframeFw.v)
            trxcon   src/sched_mframe.c     l1sched_mframe_layout()                  (tables come from Gen/MframeTrxcon.v)
            trxcon   src/sched_trx.c        l1sched_pull_burst() / l1sched_handle_rx_burst(): frames[fn % period]
   C integers: l1s.current_time.fn is uint32_t (fn + SCHEDULE_AHEAD wraps mod 2^32), modulo/frame_nr/flags are uint16_t,
   tdma_schedule_set(uint8_t frame_offset, set, uint16_t p3); period/slotmask are uint8_t, lchan_mask uint64_t.
   Division by a zero modulo/period and a NULL table are explicit results. *)
From Coq Require Import ZArith List Bool.
From OBB Require Import Base.Range Gen.MframeFw Gen.MframeTrxcon.
Import ListNotations.
Open Scope Z_scope.

Definition u8 (x : Z) := x mod 256.
Definition u16 (x : Z) := x mod 65536.
Definition u32 (x : Z) := x mod 4294967296.
Definition s32 (x : Z) : Z := let y := u32 x in if y <? 2147483648 then y else y - 4294967296.   (* a uint32_t read as int *)

(* ------------------------------------------------------------------ firmware *)

(* item kinds = which TDMA sched set the row points to (codes fixed by charness/c11_fw_common.h) *)
Definition K_NB_DL : Z := 0.   (* nb_sched_set:       4-burst downlink block *)
Definition K_NB_UL : Z := 1.   (* nb_sched_set_ul:    4-burst uplink block *)
Definition K_PM    : Z := 2.   (* neigh_pm_sched_set: neighbour power measurement *)
Definition K_TCH   : Z := 3.   (* tch_sched_set:      one traffic frame (Rx and Tx) *)
Definition K_TCH_A : Z := 4.   (* tch_a_sched_set:    one SACCH/T frame *)
Definition K_TCH_D : Z := 5.   (* tch_d_sched_set:    dummy (frame of the other TCH/H sub-channel) *)

(* one recorded call tdma_schedule_set(frame_offset, set, p3) as (frame_offset, kind of set, p3) *)
Definition call := (Z * Z * Z)%type.

Inductive fwres :=
| FwNull                (* sched_set_for_task[task] == NULL is dereferenced *)
| FwDivZero             (* a row with modulo 0: frame_nr % 0 *)
| FwOk (cs : list call).

(* the body of the for-loop of mframe_schedule_set(task_id) with l1s.current_time.fn = cur *)
Fixpoint fw_set_items (task cur : Z) (items : list (Z*Z*Z*Z)) : option (list call) :=
  match items with
  | [] => Some []
  | (kind, modulo, frame_nr, flags) :: tl =>
      if modulo =? 0 then None
      else
        let trigger := frame_nr mod modulo in
        let current := u32 (cur + fw_SCHEDULE_AHEAD) mod modulo in
        match fw_set_items task cur tl with
        | None => None
        | Some r =>
            Some (if current =? trigger
                  then (u8 (fw_SCHEDULE_AHEAD - fw_SCHEDULE_LATENCY), kind, u16 (Z.lor task (Z.shiftl flags 8))) :: r
                  else r)
        end
  end.

Definition fw_schedule_set (task cur : Z) : fwres :=
  match nth_error fw_sched (Z.to_nat task) with
  | Some (Some items) => match fw_set_items task cur items with Some cs => FwOk cs | None => FwDivZero end
  | _ => FwNull
  end.

(* mframe_schedule() right after mframe_reset()+mframe_set(mask): safe_fn = -1UL >= GSM_MAX_FN, so tasks := tasks_tgt = mask;
   then for (i = 0; i < 32; i++) if (tasks & (1 << i)) mframe_schedule_set(i) *)
Fixpoint fw_sched_tasks (mask cur : Z) (ids : list Z) : fwres :=
  match ids with
  | [] => FwOk []
  | i :: tl =>
      if Z.testbit mask i then
        match fw_schedule_set i cur with
        | FwOk c => match fw_sched_tasks mask cur tl with FwOk r => FwOk (c ++ r) | e => e end
        | e => e
        end
      else fw_sched_tasks mask cur tl
  end.

Definition fw_mframe_schedule (mask cur : Z) : fwres := fw_sched_tasks (u32 mask) cur (range 0 32).

(* does the call carry this sched set and this value of the MF_F_SACCH flag (p3 = task_id | flags << 8) *)
Definition call_is (kind : Z) (sacch : bool) (c : call) : bool :=
  let '(_, k, p3) := c in
  (k =? kind) && Bool.eqb (negb (Z.land (Z.shiftr p3 8) fw_MF_F_SACCH =? 0)) sacch.

(* "the firmware, at current frame cur, starts an item of this kind (with / without the SACCH flag) for this task";
   the item is on air SCHEDULE_AHEAD frames later *)
Definition fw_fires (task kind : Z) (sacch : bool) (cur : Z) : bool :=
  match fw_schedule_set task cur with FwOk cs => existsb (call_is kind sacch) cs | _ => false end.

(* does the task have a row that is none of the listed (kind, flags) pairs *)
Definition fw_rows_within (task : Z) (allowed : list (Z*Z)) : bool :=
  match nth_error fw_sched (Z.to_nat task) with
  | Some (Some items) =>
      forallb (fun it : Z*Z*Z*Z => let '(k, _, _, fl) := it in existsb (fun a : Z*Z => (fst a =? k) && (snd a =? fl)) allowed) items
  | _ => false
  end.

Definition fw_task_chan_nr (task tn : Z) : Z := nth (Z.to_nat tn) (nth (Z.to_nat task) fw_chan_nr []) (-1).

(* ------------------------------------------------------------------ firmware: the scheduler state and its operations
   struct mframe_scheduler { uint32_t tasks, tasks_tgt, safe_fn; }: tasks_tgt is what L1A asked for (mframe_enable / mframe_disable /
   mframe_set), tasks is what is scheduled; new tasks are taken over only when no DSP command of an earlier set is in flight
   (the current frame has reached safe_fn), disabled ones are dropped at once.
   C integers: `int fn_diff = safe_fn - current_time.fn` is the 32-bit difference read as int; `-1UL` stored in safe_fn is 2^32-1;
   ADD_MODULO(fn, rv - 2, GSM_MAX_FN) on a uint32_t: fn += rv - 2 (mod 2^32); if (fn >= GSM_MAX_FN) fn -= GSM_MAX_FN;
   rv = what tdma_schedule_set() returns = the number of frames of the set (Gen fw_set_frames; a bucket overflow, -1, is C08's subject). *)

Record mfst := mkmf { ms_tasks : Z; ms_tgt : Z; ms_safe : Z }.

Definition mf_reset : mfst := mkmf 0 0 4294967295.
Definition mf_enable (t : Z) (s : mfst) : mfst := mkmf (ms_tasks s) (u32 (Z.lor (ms_tgt s) (Z.shiftl 1 t))) (ms_safe s).
Definition mf_disable (t : Z) (s : mfst) : mfst := mkmf (ms_tasks s) (Z.ldiff (ms_tgt s) (Z.shiftl 1 t)) (ms_safe s).
Definition mf_set (m : Z) (s : mfst) : mfst := mkmf (ms_tasks s) (u32 m) (ms_safe s).

(* (fn_diff <= 0) || (fn_diff >= (GSM_MAX_FN>>1)) || (safe_fn >= GSM_MAX_FN) *)
Definition mf_safe_test (cur : Z) (s : mfst) : bool :=
  let d := s32 (ms_safe s - cur) in
  (d <=? 0) || (d >=? Z.shiftr fw_GSM_MAX_FN 1) || (ms_safe s >=? fw_GSM_MAX_FN).

(* safe: tasks = tasks_tgt; safe_fn = -1UL (the reached safe point is forgotten);  else: tasks &= tasks_tgt *)
Definition mf_tasks_after (cur : Z) (s : mfst) : Z :=
  if mf_safe_test cur s then ms_tgt s else Z.land (ms_tasks s) (ms_tgt s).
Definition mf_safe_after_test (cur : Z) (s : mfst) : Z :=
  if mf_safe_test cur s then 4294967295 else ms_safe s.

Definition set_rv (kind : Z) : Z := nth (Z.to_nat kind) fw_set_frames 0.

Definition add_modulo (sum delta m : Z) : Z := let x := u32 (sum + delta) in if x >=? m then u32 (x - m) else x.

(* mframe_schedule_set() after one tdma_schedule_set() call: fn = current fn (+) (rv - 2);
   if (safe_fn >= GSM_MAX_FN || (fn != safe_fn && ((fn + GSM_MAX_FN - safe_fn) % GSM_MAX_FN) < (GSM_MAX_FN >> 1))) safe_fn = fn; *)
Definition safe_upd (cur : Z) (safe : Z) (c : call) : Z :=
  let '(_, kind, _) := c in
  let fn := add_modulo (u32 cur) (set_rv kind - 2) fw_GSM_MAX_FN in
  if (safe >=? fw_GSM_MAX_FN) ||
     (negb (fn =? safe) && (u32 (fn + fw_GSM_MAX_FN - safe) mod fw_GSM_MAX_FN <? Z.shiftr fw_GSM_MAX_FN 1))
  then fn else safe.

(* mframe_schedule() at current frame cur: the tdma_schedule_set() calls (exactly those of the per-tick core fw_mframe_schedule with
   the task mask after the update) and the state afterwards; safe_fn is only read by its own update, so folding the update over the
   calls in order is the interleaving of the code *)
Definition mf_schedule (cur : Z) (s : mfst) : fwres * mfst :=
  let t := mf_tasks_after cur s in
  let sf := mf_safe_after_test cur s in
  match fw_mframe_schedule t cur with
  | FwOk cs => (FwOk cs, mkmf t (ms_tgt s) (fold_left (safe_upd cur) cs sf))
  | e => (e, mkmf t (ms_tgt s) sf)
  end.

(* histories of requests and ticks *)
Inductive mfop := OpEnable (t : Z) | OpDisable (t : Z) | OpSet (m : Z) | OpReset | OpTick (cur : Z).

Definition mf_step (s : mfst) (o : mfop) : mfst :=
  match o with
  | OpEnable t => mf_enable t s
  | OpDisable t => mf_disable t s
  | OpSet m => mf_set m s
  | OpReset => mf_reset
  | OpTick cur => snd (mf_schedule cur s)
  end.

Definition mf_run (ops : list mfop) (s : mfst) : mfst := fold_left mf_step ops s.

Definition task_ok (t : Z) : bool := (0 <=? t) && (t <? 32).

(* requests that leave task t switched on / switched off (task numbers of enable / disable are 0 .. 31) *)
Definition op_keeps_on (t : Z) (o : mfop) : bool :=
  match o with
  | OpEnable t' => task_ok t'
  | OpDisable t' => task_ok t' && negb (t' =? t)
  | OpSet m => Z.testbit (u32 m) t
  | OpReset => false
  | OpTick _ => true
  end.
Definition op_keeps_off (t : Z) (o : mfop) : bool :=
  match o with
  | OpEnable t' => task_ok t' && negb (t' =? t)
  | OpDisable t' => task_ok t'
  | OpSet m => negb (Z.testbit (u32 m) t)
  | _ => true
  end.

(* the calls one tick makes for task t: those of mframe_schedule_set(t) when t is active after the update, none otherwise *)
Definition calls_of (t cur : Z) : list call := match fw_schedule_set t cur with FwOk cs => cs | _ => [] end.
Definition mf_task_calls (cur : Z) (s : mfst) (t : Z) : list call :=
  if Z.testbit (mf_tasks_after cur s) t then calls_of t cur else [].
Definition mf_fires (cur : Z) (s : mfst) (task kind : Z) (sacch : bool) : bool :=
  existsb (call_is kind sacch) (mf_task_calls cur s task).

(* the invariant of safe_fn after the tick of frame cur: force-safe, or at most 4 frames ahead of cur modulo the hyperframe
   (4 = 6 - 2: no sched set has more than 6 frames) *)
Definition mf_inv (cur : Z) (s : mfst) : bool :=
  (0 <=? ms_safe s) && ((2715648 <=? ms_safe s) || ((ms_safe s - cur) mod 2715648 <=? 4)).

(* executable checkers for the sweeps of Proofs/MframeSchedP.v: every sched set the tables use has 2 .. 6 frames *)
Definition chk_set_frames : bool :=
  forallb (fun o : option (list (Z*Z*Z*Z)) =>
             match o with
             | Some items => forallb (fun it : Z*Z*Z*Z => let '(k, _, _, _) := it in (2 <=? set_rv k) && (set_rv k <=? 6)) items
             | None => true
             end) fw_sched.

(* ------------------------------------------------------------------ trxcon *)

Definition layout := (Z*Z*Z*Z*Z*list (Z*Z*Z*Z))%type.
Definition ly_cfg (l : layout) : Z := let '(c, _, _, _, _, _) := l in c.
Definition ly_period (l : layout) : Z := let '(_, p, _, _, _, _) := l in p.
Definition ly_slotmask (l : layout) : Z := let '(_, _, s, _, _, _) := l in s.
Definition ly_mask (l : layout) : Z := let '(_, _, _, m, _, _) := l in m.
Definition ly_nframes (l : layout) : Z := let '(_, _, _, _, n, _) := l in n.
Definition ly_frames (l : layout) : list (Z*Z*Z*Z) := let '(_, _, _, _, _, f) := l in f.

Inductive dir := DL | UL.
Definition fr_chan (d : dir) (fr : Z*Z*Z*Z) : Z := let '(dc, _, uc, _) := fr in match d with DL => dc | UL => uc end.
Definition fr_bid (d : dir) (fr : Z*Z*Z*Z) : Z := let '(_, db, _, ub) := fr in match d with DL => db | UL => ub end.

Inductive frres :=
| FrDivZero             (* fn % 0 *)
| FrOOB                 (* frames == NULL or the row index is outside the frames array *)
| FrOk (fr : Z*Z*Z*Z).

(* offset = fn % layout->period; frame = &layout->frames[offset]   (fn is uint32_t) *)
Definition trx_frame (l : layout) (fn : Z) : frres :=
  if ly_period l =? 0 then FrDivZero
  else
    let off := u32 fn mod ly_period l in
    if (0 <=? off) && (off <? ly_nframes l) then
      match nth_error (ly_frames l) (Z.to_nat off) with Some fr => FrOk fr | None => FrOOB end
    else FrOOB.

(* l1sched_handle_rx_burst() keeps the offset in a uint8_t *)
Definition trx_frame_rx (l : layout) (fn : Z) : frres :=
  if ly_period l =? 0 then FrDivZero
  else
    let off := u8 (u32 fn mod ly_period l) in
    if (0 <=? off) && (off <? ly_nframes l) then
      match nth_error (ly_frames l) (Z.to_nat off) with Some fr => FrOk fr | None => FrOOB end
    else FrOOB.

(* l1sched_mframe_layout(config, tn): first layout with chan_config == config and !(~slotmask & (1 << tn)) *)
Fixpoint trx_layout_from (i : Z) (ls : list layout) (cfg tn : Z) : option Z :=
  match ls with
  | [] => None
  | l :: tl =>
      if negb (ly_cfg l =? cfg) then trx_layout_from (i + 1) tl cfg tn
      else if negb (Z.land (Z.lnot (ly_slotmask l)) (Z.shiftl 1 tn) =? 0) then trx_layout_from (i + 1) tl cfg tn
      else Some i
  end.
Definition trx_layout (cfg tn : Z) : option Z := trx_layout_from 0 tx_layouts cfg tn.

Definition trx_layout_real (cfg tn : Z) : Z := nth (Z.to_nat tn) (nth (Z.to_nat cfg) tx_lookup []) (-9).

(* the frame fn belongs to lchan in direction d / is the first burst (bid 0) of a block of lchan *)
Definition trx_owns (l : layout) (d : dir) (lchan fn : Z) : bool :=
  match trx_frame l fn with FrOk fr => fr_chan d fr =? lchan | _ => false end.
Definition trx_first (l : layout) (d : dir) (lchan fn : Z) : bool :=
  match trx_frame l fn with FrOk fr => (fr_chan d fr =? lchan) && (fr_bid d fr =? 0) | _ => false end.
Definition trx_first_opt (l : layout) (d : dir) (lchan : option Z) (fn : Z) : bool :=
  match lchan with Some c => trx_first l d c fn | None => false end.
Definition trx_owns_opt (l : layout) (d : dir) (lchan : option Z) (fn : Z) : bool :=
  match lchan with Some c => trx_owns l d c fn | None => false end.

(* number of bursts of one block of a logical channel: single-burst channels, TCH/H (2 per 4-frame step), all others 4.
   IDLE frames belong to no channel (no handler, no channel state); their bid column is not constrained. *)
Definition lchan_nbursts (c : Z) : Z :=
  if (c =? tx_L1SCHED_FCCH) || (c =? tx_L1SCHED_SCH) || (c =? tx_L1SCHED_RACH) then 1
  else if (c =? tx_L1SCHED_TCHH_0) || (c =? tx_L1SCHED_TCHH_1) then 2
  else 4.

Definition desc_chan_nr (c : Z) : Z := let '(n, _, _, _) := nth (Z.to_nat c) tx_desc (-1, -1, 0, 0) in n.
Definition desc_link_id (c : Z) : Z := let '(_, l, _, _) := nth (Z.to_nat c) tx_desc (-1, -1, 0, 0) in l.
Definition desc_has_handler (d : dir) (c : Z) : bool :=
  let '(_, _, rx, tx) := nth (Z.to_nat c) tx_desc (-1, -1, 0, 0) in match d with DL => negb (rx =? 0) | UL => negb (tx =? 0) end.

(* ------------------------------------------------------------------ trxcon: the consumers of the frame lookup (sched_trx.c)
   l1sched_handle_rx_burst() with its helper subst_frame_loss(), l1sched_pull_burst(), l1sched_handle_rx_probe().
   C integers: bi->fn, lchan->tdma.last_proc are uint32_t; `int elapsed = fn - last_proc` is the 32-bit difference read as int;
   GSM_TDMA_FN_INC(fn) is fn = (fn + 1) % GSM_TDMA_HYPERFRAME on uint32_t; tdma.num_proc / num_lost are unsigned long (LP64: 64 bit);
   handle_rx_burst keeps the row index in a uint8_t (trx_frame_rx), subst_frame_loss / pull_burst / rx_probe in unsigned int (trx_frame).
   errno values (Linux): EIO 5, EAGAIN 11, ENODEV 19, EINVAL 22, EALREADY 114.  Ciphering (lchan->a5.algo) only changes burst bits
   and is left out; so is the hand-over RACH override of pull_burst (a queued RACH primitive replaces the handler, not the lchan). *)

Definition u64 (x : Z) : Z := x mod 18446744073709551616.

(* one channel state (struct l1sched_lchan_state): active, tdma.num_proc, tdma.num_lost, tdma.last_proc *)
Record chst := mkst { cs_active : bool; cs_nproc : Z; cs_nlost : Z; cs_last : Z }.
(* the channel states of a timeslot (ts->lchans), by lchan type *)
Definition tsst := list (Z * chst).

Fixpoint find_st (c : Z) (s : tsst) : option chst :=
  match s with
  | [] => None
  | (c', st) :: tl => if c' =? c then Some st else find_st c tl
  end.

Fixpoint set_st (c : Z) (v : chst) (s : tsst) : tsst :=
  match s with
  | [] => []
  | (c', st) :: tl => if c' =? c then (c', v) :: tl else (c', st) :: set_st c v tl
  end.

Definition st_active (s : tsst) (c : Z) : bool := match find_st c s with Some st => cs_active st | None => false end.

(* checked access to l1sched_lchan_desc[chan] *)
Definition desc_row (c : Z) : option (Z*Z*Z*Z) :=
  if (0 <=? c) && (c <? tx_CHAN_MAX) then nth_error tx_desc (Z.to_nat c) else None.

(* GSM_TDMA_FN_INC on a uint32_t *)
Definition fn_inc (f : Z) : Z := u32 (f + 1) mod 2715648.

(* the frame numbers the loss substitution walks through: n increments starting after f *)
Fixpoint fn_walk (n : nat) (f : Z) : list Z :=
  match n with O => [] | S n' => fn_inc f :: fn_walk n' (fn_inc f) end.

(* elapsed = fn - last_proc (int); >= HYPERFRAME/2: -= HYPERFRAME; < -HYPERFRAME/2: += HYPERFRAME *)
Definition rx_elapsed (fn lp : Z) : Z :=
  let e := s32 (fn - lp) in
  if e >=? 1357824 then e - 2715648 else if e <? -1357824 then e + 2715648 else e.

(* a handler call: (lchan type, bi->fn, bi->bid) *)
Definition rxcall := (Z * Z * Z)%type.

(* for (i = 0; i < elapsed - 1; i++) { fp = &mf->frames[GSM_TDMA_FN_INC(bi.fn) % mf->period]; if (fp->dl_chan != lchan->type) continue;
   bi.bid = fp->dl_bid; handler(lchan, &bi); ... }      None: a row outside the table is read *)
Fixpoint subst_loop (L : layout) (c : Z) (n : nat) (f : Z) : option (list rxcall) :=
  match n with
  | O => Some []
  | S n' =>
      let f' := fn_inc f in
      match trx_frame L f' with
      | FrOk fr =>
          match subst_loop L c n' f' with
          | None => None
          | Some r => Some (if fr_chan DL fr =? c then (c, f', fr_bid DL fr) :: r else r)
          end
      | _ => None
      end
  end.

Inductive substres :=
| SubOOB                          (* a lookup left the table *)
| SubRc (rc : Z)                  (* returned before the loop *)
| SubOk (calls : list rxcall).    (* the dummy bursts handed to the handler, in order; returns 0 *)

Definition subst_frame_loss (L : layout) (c : Z) (st : chst) (fn : Z) : substres :=
  if cs_nproc st =? 0 then SubRc (-11)
  else
    let e := rx_elapsed fn (cs_last st) in
    if e <? 0 then SubRc (-114)
    else if e >? ly_period L then SubRc (-5)
    else if e =? 0 then SubRc (-5)
    else match subst_loop L c (Z.to_nat (e - 1)) (cs_last st) with None => SubOOB | Some cs => SubOk cs end.

(* statistics update inside the loop: per substituted burst last_proc = bi.fn; num_proc++; num_lost++ *)
Definition st_after_subst (st : chst) (cs : list rxcall) : chst :=
  match cs with
  | [] => st
  | _ => let n := Z.of_nat (length cs) in
         mkst (cs_active st) (u64 (cs_nproc st + n)) (u64 (cs_nlost st + n)) (let '(_, f, _) := last cs (0, 0, 0) in f)
  end.

(* handler(lchan, bi); last_proc = bi->fn; if (++num_proc == 0) num_proc = 1 *)
Definition st_after_direct (st : chst) (fn : Z) : chst :=
  let n := u64 (cs_nproc st + 1) in
  mkst (cs_active st) (if n =? 0 then 1 else n) (cs_nlost st) fn.

Inductive rxres :=
| RxDivZero | RxOOB               (* fn % 0 / a row outside the frames table is read *)
| RxDescOOB                       (* l1sched_lchan_desc[] is read outside 0 .. _L1SCHED_CHAN_MAX-1 *)
| RxOk (rc bid : Z) (sub : list rxcall) (dir : option rxcall) (s : tsst).
                                  (* return code, bi->bid, the substituted handler calls, the call for the burst itself, states *)

(* l1sched_handle_rx_burst() on a configured timeslot with layout L and channel states s *)
Definition rx_burst (L : layout) (s : tsst) (fn : Z) : rxres :=
  match trx_frame_rx L fn with
  | FrDivZero => RxDivZero
  | FrOOB => RxOOB
  | FrOk fr =>
      let c := fr_chan DL fr in
      let bid := fr_bid DL fr in
      match desc_row c with
      | None => RxDescOOB
      | Some (_, _, rx, _) =>
          if rx =? 0 then RxOk (-19) bid [] None s
          else
            match find_st c s with
            | None => RxOk (-19) bid [] None s
            | Some st =>
                if negb (cs_active st) then RxOk 0 bid [] None s
                else
                  match subst_frame_loss L c st fn with
                  | SubOOB => RxOOB
                  | SubRc rc =>
                      if rc =? -114 then RxOk (-114) bid [] None s
                      else RxOk 0 bid [] (Some (c, fn, bid)) (set_st c (st_after_direct st fn) s)
                  | SubOk cs =>
                      RxOk 0 bid cs (Some (c, fn, bid)) (set_st c (st_after_direct (st_after_subst st cs) fn) s)
                  end
            end
      end
  end.

Definition rx_calls (sub : list rxcall) (dir : option rxcall) : list rxcall :=
  sub ++ match dir with Some d => [d] | None => [] end.

(* the burst id column as a function of the frame number *)
Definition dl_bid_at (L : layout) (f : Z) : Z := match trx_frame L f with FrOk fr => fr_bid DL fr | _ => -1 end.

(* l1sched_pull_burst(): br->bid and the lchan type whose tx handler is called (at most one) *)
Inductive txres := TxDivZero | TxOOB | TxDescOOB | TxOk (bid : Z) (calls : list Z).

Definition tx_pull (L : layout) (s : tsst) (fn : Z) : txres :=
  match trx_frame L fn with
  | FrDivZero => TxDivZero
  | FrOOB => TxOOB
  | FrOk fr =>
      let c := fr_chan UL fr in
      match desc_row c with
      | None => TxDescOOB
      | Some (_, _, _, tx) =>
          TxOk (fr_bid UL fr) (if negb (tx =? 0) && st_active s c then [c] else [])
      end
  end.

(* l1sched_handle_rx_probe(): return code and probe->flags (L1SCHED_PROBE_F_ACTIVE = 1) *)
Inductive prres := PrDivZero | PrOOB | PrDescOOB | PrOk (rc flags : Z).

Definition rx_probe (L : layout) (s : tsst) (fn flags : Z) : prres :=
  match trx_frame L fn with
  | FrDivZero => PrDivZero
  | FrOOB => PrOOB
  | FrOk fr =>
      let c := fr_chan DL fr in
      match desc_row c with
      | None => PrDescOOB
      | Some (_, _, rx, _) =>
          if rx =? 0 then PrOk (-19) flags
          else match find_st c s with
               | None => PrOk (-19) flags
               | Some st => PrOk 0 (if cs_active st then Z.lor flags 1 else flags)
               end
      end
  end.

(* executable checker for the sweep of Proofs/MframeRxP.v: the period of every layout with frames divides the hyperframe *)
Definition has_frames_cfg (cfg : Z) : bool := negb (cfg =? tx_GSM_PCHAN_NONE).
Definition chk_hyper (l : layout) : bool := negb (has_frames_cfg (ly_cfg l)) || (2715648 mod ly_period l =? 0).

(* ------------------------------------------------------------------ the specification table: task <-> (combination, timeslots, lchan, SACCH lchan) *)

Inductive mode :=
| Block      (* 4-burst blocks, downlink and uplink compared *)
| BlockDL    (* 4-burst blocks, the firmware is receive-only for this channel *)
| Tch.       (* scheduled frame by frame *)

Inductive tnrule := TnAll | TnEven | TnOdd.
Definition tn_ok (r : tnrule) (tn : Z) : bool :=
  match r with TnAll => true | TnEven => Z.even tn | TnOdd => Z.odd tn end.

Record row := { r_task : Z; r_cfg : Z; r_tn : tnrule; r_mode : mode; r_lchan : Z; r_sacch : option Z }.
Definition mk (t c : Z) (tn : tnrule) (m : mode) (l : Z) (s : option Z) : row :=
  {| r_task := t; r_cfg := c; r_tn := tn; r_mode := m; r_lchan := l; r_sacch := s |}.

Definition c11_rows : list row := [
  mk fw_MF_TASK_BCCH_NORM   tx_GSM_PCHAN_CCCH                 TnAll Block tx_L1SCHED_BCCH None;
  mk fw_MF_TASK_BCCH_NORM   tx_GSM_PCHAN_CCCH_SDCCH4          TnAll Block tx_L1SCHED_BCCH None;
  mk fw_MF_TASK_BCCH_NORM   tx_GSM_PCHAN_CCCH_SDCCH4_CBCH     TnAll Block tx_L1SCHED_BCCH None;
  mk fw_MF_TASK_CCCH        tx_GSM_PCHAN_CCCH                 TnAll Block tx_L1SCHED_CCCH None;
  mk fw_MF_TASK_CCCH_COMB   tx_GSM_PCHAN_CCCH_SDCCH4          TnAll Block tx_L1SCHED_CCCH None;
  mk fw_MF_TASK_CCCH_COMB   tx_GSM_PCHAN_CCCH_SDCCH4_CBCH     TnAll Block tx_L1SCHED_CCCH None;
  mk fw_MF_TASK_SDCCH4_0    tx_GSM_PCHAN_CCCH_SDCCH4          TnAll Block tx_L1SCHED_SDCCH4_0 (Some tx_L1SCHED_SACCH4_0);
  mk fw_MF_TASK_SDCCH4_1    tx_GSM_PCHAN_CCCH_SDCCH4          TnAll Block tx_L1SCHED_SDCCH4_1 (Some tx_L1SCHED_SACCH4_1);
  mk fw_MF_TASK_SDCCH4_2    tx_GSM_PCHAN_CCCH_SDCCH4          TnAll Block tx_L1SCHED_SDCCH4_2 (Some tx_L1SCHED_SACCH4_2);
  mk fw_MF_TASK_SDCCH4_3    tx_GSM_PCHAN_CCCH_SDCCH4          TnAll Block tx_L1SCHED_SDCCH4_3 (Some tx_L1SCHED_SACCH4_3);
  mk fw_MF_TASK_SDCCH4_0    tx_GSM_PCHAN_CCCH_SDCCH4_CBCH     TnAll Block tx_L1SCHED_SDCCH4_0 (Some tx_L1SCHED_SACCH4_0);
  mk fw_MF_TASK_SDCCH4_1    tx_GSM_PCHAN_CCCH_SDCCH4_CBCH     TnAll Block tx_L1SCHED_SDCCH4_1 (Some tx_L1SCHED_SACCH4_1);
  mk fw_MF_TASK_SDCCH4_3    tx_GSM_PCHAN_CCCH_SDCCH4_CBCH     TnAll Block tx_L1SCHED_SDCCH4_3 (Some tx_L1SCHED_SACCH4_3);
  mk fw_MF_TASK_SDCCH8_0    tx_GSM_PCHAN_SDCCH8_SACCH8C       TnAll Block tx_L1SCHED_SDCCH8_0 (Some tx_L1SCHED_SACCH8_0);
  mk fw_MF_TASK_SDCCH8_1    tx_GSM_PCHAN_SDCCH8_SACCH8C       TnAll Block tx_L1SCHED_SDCCH8_1 (Some tx_L1SCHED_SACCH8_1);
  mk fw_MF_TASK_SDCCH8_2    tx_GSM_PCHAN_SDCCH8_SACCH8C       TnAll Block tx_L1SCHED_SDCCH8_2 (Some tx_L1SCHED_SACCH8_2);
  mk fw_MF_TASK_SDCCH8_3    tx_GSM_PCHAN_SDCCH8_SACCH8C       TnAll Block tx_L1SCHED_SDCCH8_3 (Some tx_L1SCHED_SACCH8_3);
  mk fw_MF_TASK_SDCCH8_4    tx_GSM_PCHAN_SDCCH8_SACCH8C       TnAll Block tx_L1SCHED_SDCCH8_4 (Some tx_L1SCHED_SACCH8_4);
  mk fw_MF_TASK_SDCCH8_5    tx_GSM_PCHAN_SDCCH8_SACCH8C       TnAll Block tx_L1SCHED_SDCCH8_5 (Some tx_L1SCHED_SACCH8_5);
  mk fw_MF_TASK_SDCCH8_6    tx_GSM_PCHAN_SDCCH8_SACCH8C       TnAll Block tx_L1SCHED_SDCCH8_6 (Some tx_L1SCHED_SACCH8_6);
  mk fw_MF_TASK_SDCCH8_7    tx_GSM_PCHAN_SDCCH8_SACCH8C       TnAll Block tx_L1SCHED_SDCCH8_7 (Some tx_L1SCHED_SACCH8_7);
  mk fw_MF_TASK_SDCCH8_0    tx_GSM_PCHAN_SDCCH8_SACCH8C_CBCH  TnAll Block tx_L1SCHED_SDCCH8_0 (Some tx_L1SCHED_SACCH8_0);
  mk fw_MF_TASK_SDCCH8_1    tx_GSM_PCHAN_SDCCH8_SACCH8C_CBCH  TnAll Block tx_L1SCHED_SDCCH8_1 (Some tx_L1SCHED_SACCH8_1);
  mk fw_MF_TASK_SDCCH8_3    tx_GSM_PCHAN_SDCCH8_SACCH8C_CBCH  TnAll Block tx_L1SCHED_SDCCH8_3 (Some tx_L1SCHED_SACCH8_3);
  mk fw_MF_TASK_SDCCH8_4    tx_GSM_PCHAN_SDCCH8_SACCH8C_CBCH  TnAll Block tx_L1SCHED_SDCCH8_4 (Some tx_L1SCHED_SACCH8_4);
  mk fw_MF_TASK_SDCCH8_5    tx_GSM_PCHAN_SDCCH8_SACCH8C_CBCH  TnAll Block tx_L1SCHED_SDCCH8_5 (Some tx_L1SCHED_SACCH8_5);
  mk fw_MF_TASK_SDCCH8_6    tx_GSM_PCHAN_SDCCH8_SACCH8C_CBCH  TnAll Block tx_L1SCHED_SDCCH8_6 (Some tx_L1SCHED_SACCH8_6);
  mk fw_MF_TASK_SDCCH8_7    tx_GSM_PCHAN_SDCCH8_SACCH8C_CBCH  TnAll Block tx_L1SCHED_SDCCH8_7 (Some tx_L1SCHED_SACCH8_7);
  mk fw_MF_TASK_SDCCH4_CBCH tx_GSM_PCHAN_CCCH_SDCCH4_CBCH     TnAll Block tx_L1SCHED_SDCCH4_CBCH None;
  mk fw_MF_TASK_SDCCH8_CBCH tx_GSM_PCHAN_SDCCH8_SACCH8C_CBCH  TnAll Block tx_L1SCHED_SDCCH8_CBCH None;
  mk fw_MF_TASK_GPRS_PDTCH  tx_GSM_PCHAN_PDCH                 TnAll BlockDL tx_L1SCHED_PDTCH None;
  mk fw_MF_TASK_TCH_F_EVEN  tx_GSM_PCHAN_TCH_F                TnEven Tch tx_L1SCHED_TCHF (Some tx_L1SCHED_SACCHTF);
  mk fw_MF_TASK_TCH_F_ODD   tx_GSM_PCHAN_TCH_F                TnOdd  Tch tx_L1SCHED_TCHF (Some tx_L1SCHED_SACCHTF);
  mk fw_MF_TASK_TCH_H_0     tx_GSM_PCHAN_TCH_H                TnAll  Tch tx_L1SCHED_TCHH_0 (Some tx_L1SCHED_SACCHTH_0);
  mk fw_MF_TASK_TCH_H_1     tx_GSM_PCHAN_TCH_H                TnAll  Tch tx_L1SCHED_TCHH_1 (Some tx_L1SCHED_SACCHTH_1)
].

(* the sub-channel a TCH/H dummy frame (TCH_D) belongs to *)
Definition other_subchan (c : Z) : option Z :=
  if c =? tx_L1SCHED_TCHH_0 then Some tx_L1SCHED_TCHH_1
  else if c =? tx_L1SCHED_TCHH_1 then Some tx_L1SCHED_TCHH_0 else None.

Definition is_tch (m : mode) : bool := match m with Tch => true | _ => false end.

(* the layout trxcon uses for the row's combination on timeslot tn *)
Definition row_layout (r : row) (tn : Z) : option layout :=
  match trx_layout (r_cfg r) tn with Some li => nth_error tx_layouts (Z.to_nat li) | None => None end.

(* ------------------------------------------------------------------ executable checkers (what the failing-input search find_bad_row evaluates;
   the proofs evaluate the same comparison row by row over one cycle: row_agrees / task_agrees in Proofs/MframeP.v) *)

(* block channels: at current frame cur the firmware starts a DL / UL block (plain / SACCH) exactly when trxcon's frame
   cur + SCHEDULE_AHEAD is burst 0 of the channel in that direction *)
Definition chk_block (r : row) (tn cur : Z) : bool :=
  match row_layout r tn with
  | None => false
  | Some L =>
      let fn := cur + 2 in
      Bool.eqb (fw_fires (r_task r) K_NB_DL false cur) (trx_first L DL (r_lchan r) fn) &&
      Bool.eqb (fw_fires (r_task r) K_NB_DL true cur) (trx_first_opt L DL (r_sacch r) fn) &&
      match r_mode r with
      | Block => Bool.eqb (fw_fires (r_task r) K_NB_UL false cur) (trx_first L UL (r_lchan r) fn) &&
                 Bool.eqb (fw_fires (r_task r) K_NB_UL true cur) (trx_first_opt L UL (r_sacch r) fn)
      | _ => negb (fw_fires (r_task r) K_NB_UL false cur) && negb (fw_fires (r_task r) K_NB_UL true cur)
      end
  end.

(* TCH and SACCH/T: frame by frame, both directions; TCH_D = frames of the other TCH/H sub-channel (never on TCH/F) *)
Definition chk_tch (r : row) (tn cur : Z) : bool :=
  match row_layout r tn with
  | None => false
  | Some L =>
      let fn := cur + 2 in
      Bool.eqb (fw_fires (r_task r) K_TCH false cur) (trx_owns L DL (r_lchan r) fn) &&
      Bool.eqb (fw_fires (r_task r) K_TCH false cur) (trx_owns L UL (r_lchan r) fn) &&
      Bool.eqb (fw_fires (r_task r) K_TCH_A true cur) (trx_owns_opt L DL (r_sacch r) fn) &&
      Bool.eqb (fw_fires (r_task r) K_TCH_A true cur) (trx_owns_opt L UL (r_sacch r) fn) &&
      Bool.eqb (fw_fires (r_task r) K_TCH_D false cur) (trx_owns_opt L DL (other_subchan (r_lchan r)) fn) &&
      Bool.eqb (fw_fires (r_task r) K_TCH_D false cur) (trx_owns_opt L UL (other_subchan (r_lchan r)) fn)
  end.

(* every row of the task's table is of a kind the comparison accounts for *)
Definition chk_row_kinds (r : row) : bool :=
  match r_mode r with
  | Block => fw_rows_within (r_task r) [(K_NB_DL, 0); (K_NB_UL, 0); (K_NB_DL, fw_MF_F_SACCH); (K_NB_UL, fw_MF_F_SACCH)]
  | BlockDL => fw_rows_within (r_task r) [(K_NB_DL, 0)]
  | Tch => fw_rows_within (r_task r) [(K_TCH, 0); (K_TCH_A, fw_MF_F_SACCH); (K_TCH_D, 0)]
  end.

(* both mappings repeat with this cycle (51-multiframe channels: 2 x 51, 26-multiframe channels: 4 x 26); the sweeps run over
   one cycle per row, the conditions of chk_cycle are what allows Proofs/MframeP.v (row_at) to extend them to every frame number *)
Definition row_cycle (r : row) : Z := match r_mode r with Block => 102 | _ => 104 end.

Definition mods_divide (C : Z) (items : list (Z*Z*Z*Z)) : bool :=
  forallb (fun it : Z*Z*Z*Z => let '(_, m, _, _) := it in (0 <? m) && (C mod m =? 0)) items.

Definition chk_cycle (r : row) (tn : Z) : bool :=
  match row_layout r tn, nth_error fw_sched (Z.to_nat (r_task r)) with
  | Some L, Some (Some items) => (0 <? ly_period L) && (row_cycle r mod ly_period L =? 0) && mods_divide (row_cycle r) items
  | _, _ => false
  end.

Definition chk_row (r : row) (tn cur : Z) : bool :=
  negb (tn_ok (r_tn r) tn) || (if is_tch (r_mode r) then chk_tch r tn cur else chk_block r tn cur).

Definition chk_row_tn (r : row) (tn : Z) : bool :=
  (negb (tn_ok (r_tn r) tn) || chk_cycle r tn) && forallb (fun cur => chk_row r tn cur) (range 0 (row_cycle r)).

(* the channel number both stacks report for the row: mframe_task2chan_nr(task, tn) = desc[lchan].chan_nr | tn,
   link id 0 for the main channel and L1SCHED_CH_LID_SACCH for its SACCH *)
Definition chk_row_chan_nr (r : row) (tn : Z) : bool :=
  (fw_task_chan_nr (r_task r) tn =? Z.lor (desc_chan_nr (r_lchan r)) tn) && (desc_link_id (r_lchan r) =? 0) &&
  match r_sacch r with
  | Some s => (desc_chan_nr s =? desc_chan_nr (r_lchan r)) && (desc_link_id s =? tx_LID_SACCH)
  | None => true
  end.

(* burst ids: from frame i the next frame (cyclically, i+d mod period, smallest d >= 1) of the same channel carries bid+1 mod nbursts *)
Fixpoint first_same (l : layout) (d : dir) (c i : Z) (k : Z) (fuel : nat) : option Z :=
  match fuel with
  | O => None
  | S f =>
      match trx_frame l (i + k) with
      | FrOk fr => if fr_chan d fr =? c then Some k else first_same l d c i (k + 1) f
      | _ => None
      end
  end.

Definition chk_bid_at (l : layout) (d : dir) (i : Z) : bool :=
  match trx_frame l i with
  | FrOk fr =>
      let c := fr_chan d fr in
      let n := lchan_nbursts c in
      (c =? tx_L1SCHED_IDLE) ||
      (0 <=? fr_bid d fr) && (fr_bid d fr <? n) &&
      match first_same l d c i 1 (Z.to_nat (ly_period l)) with
      | Some k => match trx_frame l (i + k) with FrOk fr' => fr_bid d fr' =? (fr_bid d fr + 1) mod n | _ => false end
      | None => false
      end
  | _ => false
  end.

Definition has_frames (l : layout) : bool := negb (ly_cfg l =? tx_GSM_PCHAN_NONE).

Definition chk_bids (l : layout) : bool :=
  negb (has_frames l) || forallb (fun i => chk_bid_at l DL i && chk_bid_at l UL i) (range 0 (ly_period l)).

Definition chk_table (l : layout) : bool :=
  negb (has_frames l) ||
  ((0 <? ly_period l) && (ly_period l <=? ly_nframes l) && (ly_period l <? 256) &&
   (Z.of_nat (length (ly_frames l)) =? ly_nframes l)).

Definition chan_in_mask (l : layout) (c : Z) : bool :=
  (c =? tx_L1SCHED_IDLE) || ((0 <=? c) && (c <? tx_CHAN_MAX) && (c <? 64) && Z.testbit (ly_mask l) c).

Definition chk_mask (l : layout) : bool :=
  forallb (fun fr => chan_in_mask l (fr_chan DL fr) && chan_in_mask l (fr_chan UL fr)) (ly_frames l).

(* channel combinations trxcon knows; every other value of enum gsm_phys_chan_config has no layout *)
Definition c11_configs : list Z :=
  [tx_GSM_PCHAN_NONE; tx_GSM_PCHAN_CCCH; tx_GSM_PCHAN_CCCH_SDCCH4; tx_GSM_PCHAN_CCCH_SDCCH4_CBCH; tx_GSM_PCHAN_SDCCH8_SACCH8C;
   tx_GSM_PCHAN_SDCCH8_SACCH8C_CBCH; tx_GSM_PCHAN_TCH_F; tx_GSM_PCHAN_TCH_H; tx_GSM_PCHAN_PDCH].

Definition chk_lookup (cfg tn : Z) : bool :=
  match trx_layout cfg tn with
  | Some li =>
      (trx_layout_real cfg tn =? li) && existsb (Z.eqb cfg) c11_configs &&
      match nth_error tx_layouts (Z.to_nat li) with
      | Some L => (ly_cfg L =? cfg) && Z.testbit (ly_slotmask L) tn
      | None => false
      end
  | None => (trx_layout_real cfg tn =? -1) && negb (existsb (Z.eqb cfg) c11_configs)
  end.

(* ------------------------------------------------------------------ trxcon: from an RSL channel number to the channel combination
   sched_trx.c l1sched_chan_nr2pchan_config(uint8_t chan_nr): what handle_dch_est_req() hands to l1sched_configure_ts() when a dedicated
   channel is established.  cbits = chan_nr >> 3; ABIS_RSL_CHAN_NR_CBITS_*: Bm 0x01, Lm 0x02+s, SDCCH/4 0x04+s, SDCCH/8 0x08+s,
   Osmocom PDCH 0x18, CBCH on SDCCH/4 0x19, CBCH on SDCCH/8 0x1a *)
Definition trx_chan_nr2pchan (chan_nr : Z) : Z :=
  let cbits := Z.shiftr (u8 chan_nr) 3 in
  if cbits =? 1 then tx_GSM_PCHAN_TCH_F
  else if Z.land cbits 30 =? 2 then tx_GSM_PCHAN_TCH_H
  else if Z.land cbits 28 =? 4 then tx_GSM_PCHAN_CCCH_SDCCH4
  else if Z.land cbits 24 =? 8 then tx_GSM_PCHAN_SDCCH8_SACCH8C
  else if Z.land cbits 31 =? 25 then tx_GSM_PCHAN_CCCH_SDCCH4_CBCH
  else if Z.land cbits 31 =? 26 then tx_GSM_PCHAN_SDCCH8_SACCH8C_CBCH
  else if Z.land cbits 31 =? 24 then tx_GSM_PCHAN_PDCH
  else tx_GSM_PCHAN_NONE.

(* rows of channels that are established through a channel number (everything but BCCH and CCCH, which the CCCH mode selects) *)
Definition row_dedicated (r : row) : bool := negb ((r_lchan r =? tx_L1SCHED_BCCH) || (r_lchan r =? tx_L1SCHED_CCCH)).

Definition tnrule_eqb (a b : tnrule) : bool :=
  match a, b with TnAll, TnAll | TnEven, TnEven | TnOdd, TnOdd => true | _, _ => false end.
Definition mode_eqb (a b : mode) : bool :=
  match a, b with Block, Block | BlockDL, BlockDL | Tch, Tch => true | _, _ => false end.
Definition optz_eqb (a b : option Z) : bool :=
  match a, b with Some x, Some y => x =? y | None, None => true | _, _ => false end.
(* the same firmware task, channel, SACCH, timeslots and mode - possibly under another combination *)
Definition same_chan (r r' : row) : bool :=
  (r_task r =? r_task r') && (r_lchan r =? r_lchan r') && optz_eqb (r_sacch r) (r_sacch r') &&
  tnrule_eqb (r_tn r) (r_tn r') && mode_eqb (r_mode r) (r_mode r').

(* the channel number the firmware reports for the row's task on timeslot tn resolves to a combination under which the table has this
   very channel (dedicated rows); BCCH / CCCH channel numbers do not resolve (GSM_PCHAN_NONE) *)
Definition chk_resolve (r : row) (tn : Z) : bool :=
  let cfg := trx_chan_nr2pchan (fw_task_chan_nr (r_task r) tn) in
  if row_dedicated r then existsb (fun r' => same_chan r r' && (r_cfg r' =? cfg)) c11_rows
  else cfg =? tx_GSM_PCHAN_NONE.

(* ------------------------------------------------------------------ failing-input search (same checkers, first offender) *)

Definition pairs {A B} (la : list A) (lb : list B) : list (A * B) := flat_map (fun a => map (fun b => (a, b)) lb) la.

Definition find_bad_row (fnmax : Z) : option (Z * Z * Z) :=
  let idx := combine (map Z.of_nat (seq 0 (length c11_rows))) c11_rows in
  let top (r : row) := if fnmax <=? 0 then row_cycle r else fnmax in
  match find (fun x : (Z * row) * Z => negb (forallb (fun cur => chk_row (snd (fst x)) (snd x) cur) (range 0 (top (snd (fst x)))))) (pairs idx (range 0 8)) with
  | Some ((ri, r), tn) =>
      match find (fun cur => negb (chk_row r tn cur)) (range 0 (top r)) with Some cur => Some (ri, tn, cur) | None => None end
  | None => None
  end.

(* ------------------------------------------------------------------ wire functions (correspondence driver) *)

Definition enc_calls (cs : list call) : list Z :=
  Z.of_nat (length cs) :: flat_map (fun c : call => let '(o, k, p) := c in [o; k; p]) cs.

(* [mask; fn] -> n, (frame_offset, kind, p3)*n   of the real mframe_schedule() *)
Definition w_c11_fw_sched (a : list Z) : list Z :=
  match a with
  | [mask; fn] => match fw_mframe_schedule mask fn with FwOk cs => enc_calls cs | FwNull => [-1] | FwDivZero => [-2] end
  | _ => [-999]
  end.

(* [layout index; fn] -> layouts[i].frames[fn % period] *)
Definition w_c11_trx_frame (a : list Z) : list Z :=
  match a with
  | [li; fn] =>
      if li <? 0 then [-1] else
      match nth_error tx_layouts (Z.to_nat li) with
      | None => [-1]
      | Some L => match trx_frame L fn with FrOk (dc, db, uc, ub) => [dc; db; uc; ub] | FrDivZero => [-2] | FrOOB => if ly_nframes L <? 0 then [-2] else [-3] end
      end
  | _ => [-999]
  end.

(* [config; tn] -> index of the layout chosen by l1sched_mframe_layout(), -1 for NULL *)
Definition w_c11_trx_layout (a : list Z) : list Z :=
  match a with
  | [cfg; tn] => match trx_layout cfg tn with Some li => [li] | None => [-1] end
  | _ => [-999]
  end.

(* sched_trx.c l1sched_configure_ts(): after choosing the layout it allocates one channel state for every lchan type
   0 .. _L1SCHED_CHAN_MAX-1 whose bit is set in the layout's 64-bit lchan_mask (LAYOUT_HAS_LCHAN), in ascending type order;
   -EINVAL when there is no layout for the combination or the layout is of another combination *)
Definition trx_configured (l : layout) : list Z :=
  filter (fun c => (c <? 64) && Z.testbit (ly_mask l) c) (range 0 tx_CHAN_MAX).

(* [config; tn] -> [0; types with a channel state...] | [-22] (EINVAL) *)
Definition w_c11_cfg_ts (a : list Z) : list Z :=
  match a with
  | [cfg; tn] =>
      match trx_layout cfg tn with
      | Some li => match nth_error tx_layouts (Z.to_nat li) with
                   | Some l => if ly_cfg l =? cfg then 0 :: trx_configured l else [-22]
                   | None => [-998]
                   end
      | None => [-22]
      end
  | _ => [-999]
  end.

(* [i] -> row i of the specification table as task, combination, tn rule (0 all, 1 even, 2 odd), mode (0 Block, 1 BlockDL, 2 Tch),
   lchan, SACCH lchan or -1; [] past the end (lets the Python oracle check that it uses the same table) *)
Definition w_c11_row (a : list Z) : list Z :=
  match a with
  | [i] =>
      if i <? 0 then [] else
      match nth_error c11_rows (Z.to_nat i) with
      | Some r => [r_task r; r_cfg r; match r_tn r with TnAll => 0 | TnEven => 1 | TnOdd => 2 end;
                   match r_mode r with Block => 0 | BlockDL => 1 | Tch => 2 end; r_lchan r;
                   match r_sacch r with Some s => s | None => -1 end]
      | None => []
      end
  | _ => [-999]
  end.

(* [fnmax] (0: one cycle per row) -> first (row index, tn, cur) that breaks the block-start / frame-by-frame agreement, [] if none *)
Definition w_c11_find_bad (a : list Z) : list Z :=
  match a with
  | [fnmax] => match find_bad_row fnmax with Some (ri, tn, cur) => [ri; tn; cur] | None => [] end
  | _ => [-999]
  end.

(* ------------------------------------------------------------------ wire functions for the consumers of the lookup (charness/c11_trxcon_cfg.c rx|tx|probe) *)

(* l1sched_configure_ts(cfg) on timeslot tn as seen by the later calls: None = the result this model has no reading for;
   Some (rc, None) = ts->mf_layout stays NULL; Some (0, Some (L, s)) = layout and fresh channel states (the AUTO ones active) *)
Definition desc_auto (c : Z) : bool := negb (nth (Z.to_nat c) tx_desc_auto 0 =? 0).

Definition ts_configure (cfg tn : Z) : option (Z * option (layout * tsst)) :=
  match trx_layout cfg tn with
  | None => Some (-22, None)
  | Some li =>
      match nth_error tx_layouts (Z.to_nat li) with
      | Some l => if ly_cfg l =? cfg then Some (0, Some (l, map (fun c => (c, mkst (desc_auto c) 0 0 0)) (trx_configured l))) else None
      | None => None
      end
  end.

(* l1sched_activate_lchan() for every type in the mask: an inactive state becomes active, nothing else changes *)
Definition ts_activate (mask : Z) (s : tsst) : tsst :=
  map (fun x : Z * chst => let '(c, st) := x in
         (c, mkst (cs_active st || ((c <? 62) && Z.testbit mask c)) (cs_nproc st) (cs_nlost st) (cs_last st))) s.

(* the harness overwrites tdma.{num_proc, num_lost, last_proc} of a channel state: (type, np_hi, np_lo, nlost, last) *)
Definition poke := (Z * Z * Z * Z * Z)%type.
Definition in32 (x : Z) : bool := (0 <=? x) && (x <? 4294967296).
Definition poke_ok (p : poke) : bool :=
  let '(c, hi, lo, nl, la) := p in (0 <=? c) && (c <? tx_CHAN_MAX) && in32 hi && in32 lo && in32 nl && in32 la.
Definition ts_poke (s : tsst) (p : poke) : tsst :=
  let '(c, hi, lo, nl, la) := p in
  match find_st c s with
  | Some st => set_st c (mkst (cs_active st) (hi * 4294967296 + lo) nl la) s
  | None => s
  end.

Fixpoint take_pokes (n : nat) (a : list Z) : option (list poke * list Z) :=
  match n with
  | O => Some ([], a)
  | S n' =>
      match a with
      | c :: hi :: lo :: nl :: la :: tl =>
          match take_pokes n' tl with Some (ps, r) => Some ((c, hi, lo, nl, la) :: ps, r) | None => None end
      | _ => None
      end
  end.

(* [cfg; tn; actmask; npoke; pokes...; n; fn*n] -> (cfg, tn, actmask, pokes, fns) when well-formed (the checks of run_case()) *)
Definition dec_case (a : list Z) : option (Z * Z * Z * list poke * list Z) :=
  match a with
  | cfg :: tn :: am :: np :: tl =>
      if (0 <=? tn) && (tn <=? 7) && (0 <=? cfg) && (cfg <=? 100000) && (0 <=? am) && (0 <=? np) && (np <=? 64) then
        match take_pokes (Z.to_nat np) tl with
        | Some (ps, n :: fns) =>
            if (0 <=? n) && (Z.of_nat (length fns) =? n) && forallb poke_ok ps && forallb in32 fns then Some (cfg, tn, am, ps, fns) else None
        | _ => None
        end
      else None
  | _ => None
  end.

Definition enc_states (s : tsst) : list Z :=
  Z.of_nat (length s) ::
  flat_map (fun x : Z * chst => let '(c, st) := x in
              [c; if cs_active st then 1 else 0; cs_nproc st / 4294967296; cs_nproc st mod 4294967296; cs_nlost st; cs_last st]) s.

Definition enc_rxcalls (subst : Z) (cs : list rxcall) : list Z :=
  flat_map (fun x : rxcall => let '(c, f, b) := x in [c; f; b; subst; 1]) cs.

(* the prepared timeslot of a case *)
Definition case_ts (cfg tn am : Z) (ps : list poke) : option (Z * option (layout * tsst)) :=
  match ts_configure cfg tn with
  | Some (rc, Some (L, s)) => Some (rc, Some (L, fold_left ts_poke ps (ts_activate am s)))
  | r => r
  end.

(* bursts through l1sched_handle_rx_burst(), one after the other; None = crash (a read outside a table / division by zero) *)
Fixpoint rx_seq (L : layout) (s : tsst) (fns : list Z) : option (list Z * tsst) :=
  match fns with
  | [] => Some ([], s)
  | fn :: tl =>
      match rx_burst L s fn with
      | RxOk rc bid sub dir s' =>
          match rx_seq L s' tl with
          | Some (out, sf) =>
              Some ([rc; bid; Z.of_nat (length (rx_calls sub dir))] ++ enc_rxcalls 1 sub ++
                    enc_rxcalls 0 (match dir with Some d => [d] | None => [] end) ++ out, sf)
          | None => None
          end
      | _ => None
      end
  end.

Definition w_c11_rx (a : list Z) : list Z :=
  match dec_case a with
  | None => [-999]
  | Some (cfg, tn, am, ps, fns) =>
      match case_ts cfg tn am ps with
      | None => [-998]
      | Some (rc, None) => rc :: flat_map (fun _ : Z => [-22; 255; 0]) fns ++ [0]
      | Some (rc, Some (L, s)) =>
          if ly_period L =? 0 then [rc; -2]
          else match rx_seq L s fns with Some (out, sf) => rc :: out ++ enc_states sf | None => [rc; -3] end
      end
  end.

Fixpoint tx_seq (L : layout) (s : tsst) (fns : list Z) : option (list Z) :=
  match fns with
  | [] => Some []
  | fn :: tl =>
      match tx_pull L s fn, tx_seq L s tl with
      | TxOk bid cs, Some out => Some ([bid; Z.of_nat (length cs)] ++ flat_map (fun c => [c; fn; bid; 1]) cs ++ out)
      | _, _ => None
      end
  end.

Definition w_c11_tx (a : list Z) : list Z :=
  match dec_case a with
  | None => [-999]
  | Some (cfg, tn, am, ps, fns) =>
      match case_ts cfg tn am ps with
      | None => [-998]
      | Some (rc, None) => rc :: flat_map (fun _ : Z => [255; 0]) fns ++ [0]
      | Some (rc, Some (L, s)) =>
          if ly_period L =? 0 then [rc; -2]
          else match tx_seq L s fns with Some out => rc :: out ++ enc_states s | None => [rc; -3] end
      end
  end.

Fixpoint probe_seq (L : layout) (s : tsst) (fns : list Z) : option (list Z) :=
  match fns with
  | [] => Some []
  | fn :: tl =>
      match rx_probe L s fn 0, probe_seq L s tl with
      | PrOk rc fl, Some out => Some (rc :: fl :: out)
      | _, _ => None
      end
  end.

Definition w_c11_probe (a : list Z) : list Z :=
  match dec_case a with
  | None => [-999]
  | Some (cfg, tn, am, ps, fns) =>
      match case_ts cfg tn am ps with
      | None => [-998]
      | Some (rc, None) => rc :: flat_map (fun _ : Z => [-22; 0]) fns ++ [0]
      | Some (rc, Some (L, s)) =>
          if ly_period L =? 0 then [rc; -2]
          else match probe_seq L s fns with Some out => rc :: out ++ enc_states s | None => [rc; -3] end
      end
  end.

(* ------------------------------------------------------------------ wire function for scheduler histories (charness/c11_fw_run.c hist) *)

(* tasks 0 .. 30 that have a table (the only ones the harness lets a history switch on) *)
Definition fw_valid_mask : Z :=
  fold_left (fun m t => match nth_error fw_sched (Z.to_nat t) with Some (Some _) => Z.lor m (Z.shiftl 1 t) | _ => m end) (range 0 31) 0.

Fixpoint dec_ops (n : nat) (a : list Z) : option (list (Z*Z*Z)) :=
  match n with
  | O => match a with [] => Some [] | _ => None end
  | S n' => match a with
            | c :: x :: y :: tl => match dec_ops n' tl with Some r => Some ((c, x, y) :: r) | None => None end
            | _ => None
            end
  end.

Definition hop_ok (o : Z*Z*Z) : bool :=
  let '(c, a, b) := o in
  in32 a && in32 b &&
  (if c =? 1 then (a <=? 30) && Z.testbit fw_valid_mask a && (b =? 0)
   else if c =? 2 then (a <=? 30) && (b =? 0)
   else if c =? 3 then (Z.ldiff a fw_valid_mask =? 0) && (b =? 0)
   else if c =? 4 then (a =? 0) && (b =? 0)
   else if c =? 5 then b =? 0
   else if c =? 6 then (a <? fw_GSM_MAX_FN) && (b <=? 4000000)
   else if c =? 7 then (Z.ldiff a fw_valid_mask =? 0) && (Z.ldiff b fw_valid_mask =? 0)
   else if c =? 8 then b =? 0
   else false).

(* k consecutive ticks fn, fn+1, .. (mod GSM_MAX_FN); the number of tdma_schedule_set() calls is summed up.
   Iterated with Pos.iter (recursion depth log k: the extracted code runs millions of ticks) *)
Definition silent_step (st : option (Z * mfst * Z)) : option (Z * mfst * Z) :=
  match st with
  | Some (cur, s, total) =>
      match mf_schedule cur s with
      | (FwOk cs, s') => Some ((cur + 1) mod fw_GSM_MAX_FN, s', total + Z.of_nat (length cs))
      | _ => None
      end
  | None => None
  end.

Definition silent_ticks (k cur : Z) (s : mfst) : option (mfst * Z) :=
  match (match k with Zpos p => Pos.iter silent_step (Some (cur, s, 0)) p | _ => Some (cur, s, 0) end) with
  | Some (_, s', total) => Some (s', total)
  | None => None
  end.

Fixpoint hist_run (ops : list (Z*Z*Z)) (s : mfst) : option (list Z) :=
  match ops with
  | [] => Some []
  | (c, a, b) :: tl =>
      if c =? 5 then
        match mf_schedule a s with
        | (FwOk cs, s') => match hist_run tl s' with
                           | Some out => Some ([ms_tasks s'; ms_tgt s'; ms_safe s'] ++ enc_calls cs ++ out)
                           | None => None
                           end
        | _ => None
        end
      else if c =? 6 then
        match silent_ticks b a s with
        | Some (s', tot) => match hist_run tl s' with
                            | Some out => Some ([ms_tasks s'; ms_tgt s'; ms_safe s'; tot] ++ out)
                            | None => None
                            end
        | None => None
        end
      else
        hist_run tl (if c =? 1 then mf_enable a s
                     else if c =? 2 then mf_disable a s
                     else if c =? 3 then mf_set a s
                     else if c =? 4 then mf_reset
                     else if c =? 7 then mkmf a b (ms_safe s)
                     else if c =? 8 then mkmf (ms_tasks s) (ms_tgt s) a
                     else s)
  end.

(* [n; (code a b)*n] -> the observations of the ticks (see c11_fw_run.c); [-1]: a NULL table / modulo 0 would be hit *)
Definition w_c11_fw_hist (a : list Z) : list Z :=
  match a with
  | n :: tl =>
      if n <? 0 then [-999] else
      match dec_ops (Z.to_nat n) tl with
      | Some ops => if forallb hop_ok ops then match hist_run ops mf_reset with Some out => out | None => [-1] end else [-999]
      | None => [-999]
      end
  | _ => [-999]
  end.

(* [chan_nr] -> l1sched_chan_nr2pchan_config(chan_nr) *)
Definition w_c11_resolve (a : list Z) : list Z :=
  match a with
  | [c] => if (0 <=? c) && (c <? 256) then [trx_chan_nr2pchan c] else [-999]
  | _ => [-999]
  end.
