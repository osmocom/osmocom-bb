(* Model of gsm48_decode_mobile_alloc (C20), layer23 src/common/sysinfo.c, "Mobile Allocation" 3GPP TS 44.018 10.5.2.21.

     int gsm48_decode_mobile_alloc(struct gsm_sysinfo_freq *freq, const uint8_t *ma, uint8_t len,
                                   uint16_t *hopping, uint8_t *hopp_len, int si4)
     {   int i, j = 0;
         uint16_t f[8 << 3];                                     -- fixed array, capacity c_F_CAPACITY (Gen: the bound as compiled)
         if (len > 8) return -EINVAL;
         *hopp_len = 0;
         if (si4) for (i = 0; i < 1024; i++) freq[i].mask &= ~FREQ_TYPE_HOPP;
         if (len == 0) return 0;                                 -- empty IE: after the tabula rasa
         for (i = 1; i <= 1024; i++)
             if (freq[i & 1023].mask & FREQ_TYPE_SERV) { f[j++] = i & 1023; if (j == (len << 3)) break; }
         for (i = 0; i < (len << 3); i++)
             if (ma[len - 1 - (i >> 3)] & (1 << (i & 7))) {
                 LOGP(..., i, f[i]);                              -- reads f[i] (possibly not yet written, inside f)
                 if (i >= j) break;
                 hopping[( *hopp_len)++] = f[i];
                 if (si4) freq[f[i]].mask |= FREQ_TYPE_HOPP;
             }
         return 0; }

   C integers: len is uint8_t and is promoted to int, so len << 3 is an int in 0..2040 (no wrap); i, j are int and stay
   below 2041; mask is uint8_t (the compound assignments truncate to 8 bits: u8); *hopp_len is uint8_t ((+1) mod 256);
   hopping[] entries are uint16_t and receive values < 1024.  Every array access is checked: freq (table of the caller,
   struct gsm48_sysinfo.freq[1024]), ma (the caller's IE buffer), the local array f (capacity c_F_CAPACITY, the loop stops
   at j == len << 3), hopping (the caller's buffer, struct gsm48_sysinfo.hopping[64] / uint16_t ma[64] in gsm48_rr.c).
   An out-of-bounds access gives OOB.  Definitions only; proofs are in Proofs/MobAllocP.v. *)
From Coq Require Import ZArith List Bool.
From OBB Require Import Base.Range Gen.MobAllocConst.
Import ListNotations.
Open Scope Z_scope.

Record st := mkst { s_freq : list Z; s_hop : list Z; s_hlen : Z }.

Inductive res := Ok (rc : Z) (s : st) | OOB.

(* ---------- checked array primitives ---------- *)
Definition rd (l : list Z) (i : Z) : option Z := if i <? 0 then None else nth_error l (Z.to_nat i).

Fixpoint upd_nat (l : list Z) (n : nat) (v : Z) : option (list Z) :=
  match l with
  | [] => None
  | x :: r => match n with O => Some (v :: r) | S n' => option_map (cons x) (upd_nat r n' v) end
  end.
Definition wr (l : list Z) (i v : Z) : option (list Z) := if i <? 0 then None else upd_nat l (Z.to_nat i) v.

(* ---------- the flag operations on the uint8_t mask ---------- *)
Definition u8 (x : Z) : Z := x mod 256.
Definition is_serv (m : Z) : bool := negb (Z.land m c_FREQ_TYPE_SERV =? 0).          (* mask & FREQ_TYPE_SERV *)
Definition clr_hopp (m : Z) : Z := u8 (Z.land m (Z.lnot c_FREQ_TYPE_HOPP)).          (* mask &= ~FREQ_TYPE_HOPP *)
Definition set_hopp (m : Z) : Z := u8 (Z.lor m c_FREQ_TYPE_HOPP).                    (* mask |= FREQ_TYPE_HOPP *)

(* loop 1: for (i = 0; i < 1024; i++) freq[i].mask &= ~FREQ_TYPE_HOPP   (table has at least 1024 entries, checked by the caller below) *)
Definition tabula_rasa (freq : list Z) : list Z := map clr_hopp (firstn 1024 freq) ++ skipn 1024 freq.

(* loop 2 visits i = 1 .. 1024 and uses the index i & 1023 *)
Definition order : list Z := map (fun i => Z.land i 1023) (range 1 1025).
(* (i & 1023, freq[i & 1023].mask) in visiting order: freq[1] .. freq[1023], then freq[0]; equal to the indexed reads by
   Proofs.MobAllocP.visit_eq (Props c20_visit_order) when the table has 1024 entries *)
Definition visit (freq : list Z) : list (Z * Z) := combine order (skipn 1 (firstn 1024 freq) ++ firstn 1 freq).

(* f is the written prefix of the local array (capacity fcap), j its length, lim = len << 3; None = write outside f *)
Fixpoint gen_f (fcap lim : Z) (l : list (Z * Z)) (f : list Z) (j : Z) : option (list Z * Z) :=
  match l with
  | [] => Some (f, j)
  | (a, m) :: r =>
      if is_serv m then
        if j <? fcap then                                        (* f[j++] = i & 1023 : checked write *)
          let f' := f ++ [a] in
          let j' := j + 1 in
          if j' =? lim then Some (f', j') else gen_f fcap lim r f' j'  (* if (j == (len << 3)) break *)
        else None
      else gen_f fcap lim r f j
  end.

(* loop 3 over the remaining values of i; None = access outside a buffer *)
Fixpoint pick (ma : list Z) (len fcap : Z) (f : list Z) (j : Z) (si4 : bool) (is : list Z) (s : st) : option st :=
  match is with
  | [] => Some s
  | i :: r =>
      match rd ma (len - 1 - Z.shiftr i 3) with                  (* ma[len - 1 - (i >> 3)] *)
      | None => None
      | Some b =>
          if negb (Z.land b (Z.shiftl 1 (Z.land i 7)) =? 0) then (* & (1 << (i & 7)) *)
            if fcap <=? i then None                              (* LOGP argument f[i]: inside f? *)
            else if j <=? i then Some s                          (* if (i >= j) break *)
            else
              match rd f i with
              | None => None
              | Some a =>
                  match wr (s_hop s) (s_hlen s) a with           (* hopping[( *hopp_len)++] = f[i] *)
                  | None => None
                  | Some hop' =>
                      let hl' := u8 (s_hlen s + 1) in
                      if si4 then
                        match rd (s_freq s) a with               (* freq[f[i]].mask |= FREQ_TYPE_HOPP *)
                        | None => None
                        | Some m =>
                            match wr (s_freq s) a (set_hopp m) with
                            | None => None
                            | Some fr' => pick ma len fcap f j si4 r (mkst fr' hop' hl')
                            end
                        end
                      else pick ma len fcap f j si4 r (mkst (s_freq s) hop' hl')
                  end
              end
          else pick ma len fcap f j si4 r s
      end
  end.

Definition decode (freq ma : list Z) (len : Z) (hop : list Z) (hl si4 : Z) : res :=
  let lim := Z.shiftl len 3 in
  if 8 <? len then Ok (- c_EINVAL) (mkst freq hop hl)
  else
    let si4b := negb (si4 =? 0) in
    if si4b && (Zlength freq <? 1024) then OOB                   (* loop 1 touches freq[0..1023] *)
    else
      let fr1 := if si4b then tabula_rasa freq else freq in
      if len =? 0 then Ok 0 (mkst fr1 hop 0)                     (* if (len == 0) return 0; *)
      else if Zlength freq <? 1024 then OOB                      (* loop 2 touches freq[0..1023] *)
      else
        match gen_f c_F_CAPACITY lim (visit fr1) [] 0 with
        | None => OOB
        | Some (f, j) =>
            match pick ma len c_F_CAPACITY f j si4b (range 0 lim) (mkst fr1 hop 0) with
            | None => OOB
            | Some s => Ok 0 s
            end
        end.

(* ---------- specification side: 3GPP TS 44.018 10.5.2.21, literal numbers ---------- *)
Definition zn (l : list Z) (i : Z) : Z := nth (Z.to_nat i) l 0.
(* ARFCN a belongs to the cell allocation: FREQ_TYPE_SERV = 0x01 is set in its mask *)
Definition serving (freq : list Z) (a : Z) : bool := negb (Z.land (zn freq a) 1 =? 0).
(* the cell allocation in the order the Mobile Allocation bitmap refers to: ascending ARFCN, ARFCN 0 last *)
Definition cell_alloc (freq : list Z) : list Z := filter (serving freq) (range 1 1024 ++ [0]).
(* bit i of the bitmap (MA C i+1): bit (i mod 8) of octet len - 1 - i / 8, i.e. the LSB of the last octet first *)
Definition ma_bit (ma : list Z) (len i : Z) : bool := Z.testbit (zn ma (len - 1 - i / 8)) (i mod 8).
(* keep the set bits up to (not including) the first one that points beyond the n cell-allocation channels *)
Fixpoint cut (n : Z) (bits : list Z) : list Z :=
  match bits with [] => [] | i :: r => if i <? n then i :: cut n r else [] end.
Definition spec_hopping (freq ma : list Z) (len : Z) : list Z :=
  map (zn (cell_alloc freq)) (cut (Zlength (cell_alloc freq)) (filter (ma_bit ma len) (range 0 (8 * len)))).
Definition has (l : list Z) (a : Z) : bool := existsb (Z.eqb a) l.

(* ---------- wire functions for the correspondence driver ----------
   arguments: si4 len hl0 hfill bg nma ma_0 .. ma_{nma-1} (idx mask)*   with idx strictly ascending;
   table entry idx has the given mask, every other entry has mask bg; hopping[k] initially (hfill + k) mod 65536.
   observation: rc hopp_len hopping[0..size-1] (idx newmask)* for every changed table entry | -998 (OOB) *)
Fixpoint build (n : nat) (i bg : Z) (ps : list Z) : option (list Z) :=
  match n with
  | O => match ps with [] => Some [] | _ => None end
  | S n' =>
      match ps with
      | [] => option_map (cons bg) (build n' (i + 1) bg [])
      | [_] => None
      | k :: m :: r =>
          if k =? i then (if (0 <=? m) && (m <? 256) then option_map (cons m) (build n' (i + 1) bg r) else None)
          else if k <? i then None
          else option_map (cons bg) (build n' (i + 1) bg ps)
      end
  end.

Fixpoint diff (i : Z) (a b : list Z) : list Z :=
  match a, b with
  | x :: a', y :: b' => if x =? y then diff (i + 1) a' b' else i :: y :: diff (i + 1) a' b'
  | _, _ => []
  end.

Definition byte_ok (b : Z) : bool := (0 <=? b) && (b <? 256).

Definition wire (dec : list Z -> list Z -> Z -> list Z -> Z -> Z -> res) (a : list Z) : list Z :=
  match a with
  | si4 :: len :: hl0 :: hfill :: bg :: nma :: rest =>
      if byte_ok len && byte_ok hl0 && byte_ok bg && (0 <=? nma) && (nma <=? Zlength rest) && (0 <=? hfill) && (hfill <? 65536) then
        let ma := firstn (Z.to_nat nma) rest in
        let ps := skipn (Z.to_nat nma) rest in
        if forallb byte_ok ma then
          match build (Z.to_nat c_FREQ_TABLE_SIZE) 0 bg ps with
          | None => [-999]
          | Some freq =>
              let hop := map (fun k => (hfill + k) mod 65536) (range 0 c_HOPPING_SIZE) in
              match dec freq ma len hop hl0 si4 with
              | Ok rc s => rc :: s_hlen s :: s_hop s ++ diff 0 freq (s_freq s)
              | OOB => [-998]
              end
          end
        else [-999]
      else [-999]
  | _ => [-999]
  end.

Definition w_c20_decode (a : list Z) : list Z := wire decode a.
(* the specification itself, for the generator's cross-check of the Python oracle: hopping list only *)
Definition w_c20_spec (a : list Z) : list Z :=
  match a with
  | si4 :: len :: hl0 :: hfill :: bg :: nma :: rest =>
      if byte_ok len && byte_ok bg && (0 <=? nma) && (nma <=? Zlength rest) then
        match build (Z.to_nat c_FREQ_TABLE_SIZE) 0 bg (skipn (Z.to_nat nma) rest) with
        | None => [-999]
        | Some freq => spec_hopping freq (firstn (Z.to_nat nma) rest) len
        end
      else [-999]
  | _ => [-999]
  end.
